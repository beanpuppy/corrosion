From Coq Require Import List ZArith Bool Lia.
From Corro Require Import Lib.Ivl Lib.ListFacts Model.Chunk Model.Book Model.LocalTx Proofs.BookProofs Proofs.ChunkProofs Gen.Consts.
Import ListNotations.
Open Scope Z_scope.

Fixpoint countdown (n : nat) : list Z :=
  match n with O => [] | S k => Z.of_nat n :: countdown k end.

(* the third conjunct is what C07 claims: the acknowledged versions are exactly max, ..., 1, newest first *)
Definition LInv (s : lst) : Prop :=
  Inv (l_bv s) (l_rows s) /\ needed (l_bv s) = [] /\
  l_acked s = countdown (Z.to_nat (max0 (maxv (l_bv s)))).

Lemma lstep_LInv s r : LInv s ->
  LInv (fst (lstep s r)) /\
  (* a failed or empty request changes nothing and consumes no version *)
  ((r_ok r = false \/ r_recs r = []) -> fst (lstep s r) = s /\ o_version (snd (lstep s r)) = None /\
                                        o_same (snd (lstep s r)) = true /\ o_chunks (snd (lstep s r)) = []) /\
  (* an acknowledged request gets exactly the next version *)
  (r_ok r = true -> r_recs r <> [] ->
     o_version (snd (lstep s r)) = Some (max0 (maxv (l_bv s)) + 1) /\
     max0 (maxv (l_bv (fst (lstep s r)))) = max0 (maxv (l_bv s)) + 1).
Proof.
  intros HL. pose proof HL as (HI & Hn & Ha).
  (* one copy of the step's result to compute with, not the statement's seven *)
  destruct (lstep s r) as [s' o] eqn:E. unfold lstep in E. cbn [fst snd].
  destruct (r_ok r); cbn [negb] in E.
  2:{ injection E as <- <-. split; [exact HL|]. split; [repeat split|discriminate]. }
  destruct (r_recs r) as [|rec recs].
  { injection E as <- <-. split; [exact HL|]. split; [repeat split|intros _ []; reflexivity]. }
  pose proof (inv_max _ _ HI) as Hge. unfold next_version in E.
  destruct (insert_one_ok _ _ (max0 (maxv (l_bv s)) + 1) HI) as (b' & Eb & HI' & Hmax & Hspec & _); [lia|].
  rewrite Eb in E. set (chunks := map _ (fst _)) in E. (* they play no part: kept folded *)
  injection E as <- <-. cbn [o_version].
  rewrite Z.max_r in Hmax by lia.
  split; [|split; [intros [H|H]; discriminate|intros _ _; split; [reflexivity|exact Hmax]]].
  split; [exact HI'|]. split.
  - (* v = max + 1 opens no gap *)
    apply canonical_ext; [apply HI'|apply canonical_nil|].
    intros x. rewrite Hspec, Hn. cbn [mem]. lia.
  - cbn [l_bv l_acked]. rewrite Hmax, Ha.
    replace (Z.to_nat (max0 (maxv (l_bv s)) + 1)) with (S (Z.to_nat (max0 (maxv (l_bv s))))) by lia.
    cbn [countdown]. f_equal. lia.
Qed.

Theorem lrun_LInv rs : LInv (lrun rs).
Proof.
  apply (fold_left_inv LInv); [|split; [exact Inv_init|split; reflexivity]]. intros s r _ H. apply (lstep_LInv s r H).
Qed.

Theorem broadcast_tiles recs last :
  wf_input (map (fun r => mkChg (fst r) (snd r) (fst r)) recs) 0 last = true ->
  let cs := map (fun r => mkChg (fst r) (snd r) (fst r)) recs in
  let out := fst (run (repeat max_changes_byte_size (S (length cs))) (start_cursor cs 0 last)) in
  chunks_spec cs 0 last out.
Proof.
  intros Hwf cs out. apply run_repeat_tiles, Hwf.
Qed.
