From Coq Require Import List ZArith Bool Lia.
From Corro Require Import Model.Pack Proofs.WireProofs.
Import ListNotations.
Open Scope Z_scope.

(* Pack.v repeats take_n, take_z and of_u64 of Wire.v word for word, so their lemmas carry
   over by conversion *)
Lemma take_n_app n h t : length h = n -> take_n n (h ++ t) = Some (h, t).
Proof. exact (WireProofs.take_n_app n h t). Qed.

Lemma take_z_app h t : take_z (Z.of_nat (length h)) (h ++ t) = Some (h, t).
Proof. exact (WireProofs.take_z_app h t). Qed.

Lemma of_to_u64 i : - 2 ^ 63 <= i < 2 ^ 63 -> of_u64 (to_u64 i) = i.
Proof. exact (WireProofs.of_to_u64 i). Qed.

Lemma be_bytes_length n u : length (be_bytes n u) = n.
Proof. induction n as [|k IH]; cbn; [reflexivity|apply f_equal, IH]. Qed.

Lemma be_val_bytes : forall n u acc, be_val (be_bytes n u) acc = acc * 256 ^ Z.of_nat n + u mod 256 ^ Z.of_nat n.
Proof.
  induction n as [|k IH]; intros u acc.
  - cbn. rewrite Z.mod_1_r. lia.
  - cbn [be_bytes be_val]. rewrite IH, Nat2Z.inj_succ, Z.pow_succ_r by lia.
    assert (0 < 256 ^ Z.of_nat k) by (apply Z.pow_pos_nonneg; lia).
    rewrite (Z.mul_comm 256), (Z.rem_mul_r u (256 ^ Z.of_nat k) 256) by lia. lia.
Qed.

Lemma be_roundtrip n u : 0 <= u < 256 ^ Z.of_nat n -> be_val (be_bytes n u) 0 = u.
Proof. intros H. rewrite be_val_bytes, Z.mod_small by exact H. lia. Qed.

Lemma unpack_uint_ok n u rest :
  (n <= 8)%nat -> 0 <= u < 256 ^ Z.of_nat n ->
  unpack_uint (Z.of_nat n) (be_bytes n u ++ rest) = Some (u, rest).
Proof.
  intros Hn Hu. unfold unpack_uint.
  destruct (Z.ltb_spec 8 (Z.of_nat n)); [lia|].
  rewrite Nat2Z.id, (take_n_app n _ rest (be_bytes_length n u)), be_roundtrip by exact Hu.
  reflexivity.
Qed.

Lemma land_byte_zero k u :
  0 <= u < 256 ^ Z.of_nat (S k) -> Z.land u (255 * 256 ^ Z.of_nat k) = 0 -> u < 256 ^ Z.of_nat k.
Proof.
  intros Hu H. set (a := 8 * Z.of_nat k).
  assert (Ep : 256 ^ Z.of_nat k = 2 ^ a) by (unfold a; rewrite Z.pow_mul_r by lia; reflexivity).
  rewrite Nat2Z.inj_succ, Z.pow_succ_r, Ep in Hu by lia. rewrite Ep in *.
  assert (Hp : 0 < 2 ^ a) by (apply Z.pow_pos_nonneg; lia).
  (* shifted down by a bits, the test reads (u / 2^a) mod 256 = 0 *)
  apply (f_equal (fun x => Z.shiftr x a)) in H.
  rewrite <- Z.shiftl_mul_pow2, Z.shiftr_land, Z.shiftr_shiftl_l, Z.sub_diag, Z.shiftl_0_r, Z.shiftr_0_l in H by lia.
  change 255 with (Z.ones 8) in H. rewrite Z.land_ones, Z.shiftr_div_pow2 in H by lia.
  rewrite Z.mod_small in H by (split; [apply Z.div_pos|apply Z.div_lt_upper_bound]; lia).
  apply Z.div_small_iff in H; lia.
Qed.

(* the masks 0xFF << 8j with the widths j+1, for j from lo+n-1 down to lo *)
Fixpoint byte_masks (lo n : nat) : list (Z * nat) :=
  match n with
  | O => []
  | S k => (255 * 256 ^ Z.of_nat (lo + k), S (lo + k)) :: byte_masks lo k
  end.

Lemma nbytes_of_byte_masks lo n u : 0 <= u < 256 ^ Z.of_nat (lo + n) ->
  match nbytes_of (byte_masks lo n) u with
  | Some w => u < 256 ^ Z.of_nat w /\ (w <= lo + n)%nat
  | None => u < 256 ^ Z.of_nat lo
  end.
Proof.
  unfold nbytes_of. induction n as [|k IH]; intros Hu; cbn [byte_masks find fst snd].
  - rewrite Nat.add_0_r in Hu. apply Hu.
  - rewrite Nat.add_succ_r in Hu.
    destruct (Z.eqb_spec (Z.land u (255 * 256 ^ Z.of_nat (lo + k))) 0) as [E|_]; cbn [negb snd].
    + pose proof (land_byte_zero _ _ Hu E) as Hlt. specialize (IH (conj (proj1 Hu) Hlt)).
      destruct (find _ (byte_masks lo k)); [|exact IH]. split; [apply IH|lia].
    + split; [apply Hu|lia].
Qed.

(* the generated tables are these masks: a changed mask or width in the source breaks the
   two equations *)
Lemma nb32_masks_eq : PackMasks.nb32_masks = byte_masks 0 4.
Proof. reflexivity. Qed.

Lemma nb64_masks_eq : PackMasks.nb64_masks = byte_masks 4 4.
Proof. reflexivity. Qed.

Lemma nbytes32_bound w : 0 <= w < 2 ^ 32 -> w < 256 ^ Z.of_nat (nbytes32 w) /\ (nbytes32 w <= 4)%nat.
Proof.
  intros H. unfold nbytes32. rewrite nb32_masks_eq.
  pose proof (nbytes_of_byte_masks 0 4 w H) as Hb.
  destruct (nbytes_of (byte_masks 0 4) w); [exact Hb|]. split; [exact Hb|lia].
Qed.

Lemma nbytes64_bound u : 0 <= u < 2 ^ 64 -> u < 256 ^ Z.of_nat (nbytes64 u) /\ (nbytes64 u <= 8)%nat.
Proof.
  intros H. unfold nbytes64. rewrite nb64_masks_eq.
  pose proof (nbytes_of_byte_masks 4 4 u H) as Hb.
  destruct (nbytes_of (byte_masks 4 4) u); [exact Hb|].
  change (256 ^ Z.of_nat 4) with (2 ^ 32) in Hb. rewrite Z.mod_small by lia.
  destruct (nbytes32_bound u ltac:(lia)). split; [assumption|lia].
Qed.

(* type byte: (n*8 + t) with 0 <= t < 8 *)
Lemma tb_mod n t : 0 <= t < 8 -> (Z.of_nat n * 8 + t) mod 8 = t.
Proof. intros H. rewrite Z.add_comm, Z.mod_add by lia. apply Z.mod_small. exact H. Qed.

Lemma tb_div n t : 0 <= t < 8 -> (Z.of_nat n * 8 + t) / 8 = Z.of_nat n.
Proof. intros H. rewrite Z.add_comm, Z.div_add by lia. rewrite Z.div_small by exact H. lia. Qed.

Lemma unpack_len l rest : 0 <= l < 2 ^ 32 ->
  unpack_uint (Z.of_nat (nbytes32 l)) (be_bytes (nbytes32 l) l ++ rest) = Some (l, rest).
Proof. intros H. destruct (nbytes32_bound l H) as [Hb Hn]. apply unpack_uint_ok; lia. Qed.

Lemma unpack_cols_step v k rest : sval_ok v = true ->
  unpack_cols (S k) (pack_val v ++ rest) =
  match unpack_cols k rest with UOk vs => UOk (v :: vs) | e => e end.
Proof.
  (* unpack_cols is unfolded on the list already in view, and the length read once the type code has
     picked its branch: checking either against the whole cascade costs several times as much *)
  intros Hv. destruct v as [|i|bits|bs|bs]; cbn [pack_val sval_ok app] in *; cbn [unpack_cols].
  - reflexivity.
  - apply leb_ltb_range in Hv.
    assert (Hr : 0 <= to_u64 i < 2 ^ 64) by (apply Z.mod_pos_bound; lia). pose proof (nbytes64_bound (to_u64 i) Hr) as [Hb Hn].
    rewrite tb_mod by lia. cbn [Z.eqb Pos.eqb].
    rewrite tb_div, unpack_uint_ok, of_to_u64 by lia. reflexivity.
  - apply leb_ltb_range in Hv.
    change (2 mod 8) with 2. cbn [Z.eqb Pos.eqb].
    rewrite (take_n_app 8 (be_bytes 8 bits) _ (be_bytes_length 8 bits)), be_roundtrip by exact Hv.
    reflexivity.
  - apply andb_true_iff in Hv as [_ H]. apply Z.ltb_lt in H.
    rewrite tb_mod by lia. cbn [Z.eqb Pos.eqb].
    rewrite tb_div, <- app_assoc, unpack_len, take_z_app by lia. reflexivity.
  - apply andb_true_iff in Hv as [_ H]. apply Z.ltb_lt in H.
    rewrite tb_mod by lia. cbn [Z.eqb Pos.eqb].
    rewrite tb_div, <- app_assoc, unpack_len, take_z_app by lia. reflexivity.
Qed.

Lemma unpack_cols_pack : forall vs rest,
  forallb sval_ok vs = true ->
  unpack_cols (length vs) (flat_map pack_val vs ++ rest) = UOk vs.
Proof.
  induction vs as [|v vs IH]; intros rest Hok; [reflexivity|].
  apply andb_true_iff in Hok as [Hv Hvs].
  cbn [length flat_map]. rewrite <- app_assoc, unpack_cols_step, IH by assumption. reflexivity.
Qed.

(* no bound on the number of values: pack refuses more than 255 *)
Theorem unpack_pack vs bs :
  forallb sval_ok vs = true -> pack vs = Some bs -> unpack bs = UOk vs.
Proof.
  intros Hok Hp. unfold pack in Hp.
  destruct (255 <? Z.of_nat (length vs)); [discriminate|]. injection Hp as <-.
  unfold unpack. rewrite Nat2Z.id, <- (app_nil_r (flat_map pack_val vs)). apply unpack_cols_pack, Hok.
Qed.

Theorem pack_total vs : (length vs <= 255)%nat -> exists bs, pack vs = Some bs.
Proof.
  intros Hl. unfold pack. destruct (Z.ltb_spec 255 (Z.of_nat (length vs))); [lia|eauto].
Qed.
