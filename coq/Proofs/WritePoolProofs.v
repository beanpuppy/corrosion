From Coq Require Import List ZArith Bool Lia.
From Corro Require Import Lib.ListFacts Model.WritePool.
Import ListNotations.
Open Scope Z_scope.

Lemma grant_needs_free s o : grants (wp_step s o) <> grants s -> holder s = None /\ o = Dispatch.
Proof.
  destruct o as [[| |] id|id| |]; cbn; try congruence.
  destruct (holder s); [congruence|]. intros _. auto.
Qed.

Theorem dispatch_prefers_high s : holder s = None -> q_high s <> [] ->
  let s' := wp_step s Dispatch in
  q_normal s' = q_normal s /\ q_low s' = q_low s /\
  (holder s' = None \/ exists id, holder s' = Some id /\ In id (q_high s) /\ is_cancelled s id = false).
Proof.
  intros Hh Hq. cbn. rewrite Hh. destruct (q_high s) as [|id t]; [contradiction|].
  destruct (is_cancelled s id) eqn:E; cbn.
  - repeat split; auto.
  - repeat split; auto. right. exists id. repeat split; auto.
Qed.

Theorem dispatch_prefers_normal s : holder s = None -> q_high s = [] -> q_normal s <> [] ->
  let s' := wp_step s Dispatch in
  q_low s' = q_low s /\
  (holder s' = None \/ exists id, holder s' = Some id /\ In id (q_normal s) /\ is_cancelled s id = false).
Proof.
  intros Hh H0 Hq. cbn. rewrite Hh, H0. destruct (q_normal s) as [|id t]; [contradiction|].
  destruct (is_cancelled s id) eqn:E; cbn.
  - repeat split; auto.
  - repeat split; auto. right. exists id. repeat split; auto.
Qed.

Theorem dispatch_progress s : holder s = None -> (0 < waiting s)%nat ->
  (waiting (wp_step s Dispatch) < waiting s)%nat.
Proof.
  intros Hh Hw. unfold waiting in *. cbn. rewrite Hh.
  destruct (q_high s) as [|a t1].
  - destruct (q_normal s) as [|b t2].
    + destruct (q_low s) as [|c t3]; [destruct (Nat.lt_irrefl _ Hw)|].
      destruct (is_cancelled s c); apply Nat.lt_succ_diag_r.
    + destruct (is_cancelled s b); apply Nat.lt_succ_diag_r.
  - destruct (is_cancelled s a); apply Nat.lt_succ_diag_r.
Qed.

Theorem release_frees s : holder (wp_step s Release) = None.
Proof. reflexivity. Qed.

Theorem cancel_holder_frees s id : holder s = Some id -> holder (wp_step s (Cancel id)) = None.
Proof. intros H. cbn. rewrite H, Z.eqb_refl. reflexivity. Qed.

Theorem fifo_within_queue s id1 id2 t :
  holder s = None -> q_high s = id1 :: id2 :: t -> is_cancelled s id1 = false ->
  holder (wp_step s Dispatch) = Some id1.
Proof. intros Hh Hq Hc. cbn. rewrite Hh, Hq, Hc. reflexivity. Qed.

Lemma max_exists {A} (f : A -> Z) (l : list A) : l <> [] ->
  exists m, In m l /\ forall x, In x l -> f x <= f m.
Proof.
  induction l as [|a l IH]; intros Hne; [contradiction|].
  destruct l as [|b l'].
  - exists a. split; [left; reflexivity|]. intros x [<-|[]]. lia.
  - destruct (IH ltac:(discriminate)) as [m [Hm Hmax]].
    destruct (Z_le_gt_dec (f a) (f m)) as [Hle|Hgt].
    + exists m. split; [right; exact Hm|]. intros x [<-|Hx]; [exact Hle|exact (Hmax x Hx)].
    + exists a. split; [left; reflexivity|]. intros x [<-|Hx]; [lia|]. specialize (Hmax x Hx). lia.
Qed.

(* the idea of every no-deadlock argument here: if anything is held, somebody holds a lock of
   top rank, and a lock ranked above that one is held by nobody *)
Lemma top_holder {A} (held : A -> list Z) (rank : Z -> Z) (xs : list A) : flat_map held xs <> [] ->
  exists x top, In x xs /\ In top (held x) /\ forall l, rank top < rank l -> ~ In l (flat_map held xs).
Proof.
  intros Hne. destruct (max_exists rank _ Hne) as [top [Ht Hmax]].
  apply in_flat_map in Ht as [x [Hx Ht]]. exists x, top. split; [exact Hx|]. split; [exact Ht|].
  intros l Hl Hin. specialize (Hmax l Hin). lia.
Qed.

Lemma held_by_other_held ts i l : held_by_other ts i l = true -> In l (flat_map t_holds ts).
Proof.
  unfold held_by_other. intros H. apply existsb_exists in H as [[j t] [Hj Hc]].
  apply andb_true_iff in Hc as [_ Hc]. apply (existsb_eqb Z.eqb Z.eqb_eq) in Hc as Hl'.
  apply in_flat_map. exists t. split; [exact (in_combine_r _ _ _ _ Hj)|exact Hl'].
Qed.

Lemma can_step_free ts i t :
  (forall l, t_wants t = Some l -> ~ In l (flat_map t_holds ts)) -> can_step ts i t = true.
Proof.
  intros H. unfold can_step. destruct (t_wants t) as [l|]; [|reflexivity].
  destruct (held_by_other ts i l) eqn:E; [|reflexivity]. destruct (H l eq_refl (held_by_other_held _ _ _ E)).
Qed.

Theorem ordered_locks_never_deadlock (rank : Z -> Z) (ts : list task) :
  ts <> [] -> (forall t, In t ts -> ordered rank t = true) ->
  exists i t, nth_error ts i = Some t /\ can_step ts i t = true.
Proof.
  intros Hne Hord.
  destruct (flat_map t_holds ts) as [|h0 hs] eqn:Eh.
  - destruct ts as [|t0 ts']; [contradiction|]. exists 0%nat, t0. split; [reflexivity|].
    apply can_step_free. rewrite Eh. intros l _ [].
  - (* a holder of a top-ranked lock wants, if anything, a lock ranked above it *)
    destruct (top_holder t_holds rank ts) as (t & top & Ht & Htop & Hfree); [rewrite Eh; discriminate|].
    destruct (In_nth_error _ _ Ht) as [i Ei]. exists i, t. split; [exact Ei|].
    apply can_step_free. intros l Ew. apply Hfree.
    specialize (Hord t Ht). unfold ordered in Hord. rewrite Ew, forallb_forall in Hord.
    apply Z.ltb_lt, Hord, Htop.
Qed.
