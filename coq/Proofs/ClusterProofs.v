(* Cluster level (C01): in every reachable state of Model/Cluster.v a node that knows every
   acknowledged version shows exactly the merge of all acknowledged records -- outside the
   class of histories with two unordered records for one row (concurrent deletes). *)
From Coq Require Import List ZArith Bool Lia.
From Corro Require Import Lib.ListFacts Model.Crdt Model.CrdtSpec Model.Cluster Proofs.CrdtProofs Proofs.ConvergeProofs Proofs.LiveProofs.
Import ListNotations.
Open Scope Z_scope.

Lemma all_recs_app l1 l2 : all_recs (l1 ++ l2) = all_recs l1 ++ all_recs l2.
Proof. unfold all_recs. apply flat_map_app. Qed.

Lemma all_recs_nth l x vx r : nth_error l x = Some vx -> In r (v_recs vx) -> In r (all_recs l).
Proof. intros H Hr. unfold all_recs. apply in_flat_map. exists vx. split; [eapply nth_error_In, H|exact Hr]. Qed.

Lemma nth_error_set_nth {A} (l : list A) i y n i' :
  nth_error l i = Some n -> nth_error (set_nth i y l) i' = if Nat.eqb i' i then Some y else nth_error l i'.
Proof.
  revert i i'. induction l as [|h t IH]; intros [|i] [|i'] H; cbn in *; try discriminate; try reflexivity.
  apply IH, H.
Qed.

Lemma live_merge_all M r : live (merge_all [] M) r = live_row (stL (on_row (r_row r) M)) r.
Proof. unfold live. rewrite merge_all_get. reflexivity. Qed.

Lemma knows_absorb nd rs x y : knows (absorb nd rs x) y = Nat.eqb y x || knows nd y.
Proof. reflexivity. Qed.

Lemma mix_spec nodes x : forall rs srv l,
  mix nodes x rs srv = Some l ->
  incl l rs /\
  forall r, In r rs -> In r l \/ exists j m, nth_error nodes j = Some m /\ knows m x = true /\ live (n_db m) r = false.
Proof.
  induction rs as [|r rs IH]; intros srv l H; cbn [mix] in H.
  - injection H as <-. split; [apply incl_refl|intros r []].
  - destruct srv as [|j srv]; [discriminate|].
    destruct (nth_error nodes j) as [m|] eqn:Em; [|discriminate].
    destruct (knows m x) eqn:Ek; [|discriminate].
    destruct (mix nodes x rs srv) as [l0|] eqn:E0; [|discriminate].
    destruct (IH srv l0 E0) as [Hi Hall]. injection H as <-. split.
    + destruct (live (n_db m) r); [apply incl_cons; [left; reflexivity|]|]; apply incl_tl, Hi.
    + intros y [<-|Hy].
      * destruct (live (n_db m) r) eqn:El; [left; left; reflexivity|right; exists j, m; auto].
      * destruct (Hall y Hy) as [H|H]; [left|right; exact H]. destruct (live (n_db m) r); [right|]; exact H.
Qed.

(* Every step that does anything lets ONE node absorb records of ONE version: its own new
   transaction, whole, which is appended to the log; or an acknowledged version, of which it gets
   at least every record that is live at some node that knows the version. *)
Inductive absorbs (s s' : cstate) : Prop :=
| Absorbs i n rs x vx e
    (Hl : c_log s' = c_log s ++ e)
    (Hn : c_nodes s' = set_nth i (absorb n rs x) (c_nodes s))
    (En : nth_error (c_nodes s) i = Some n)
    (Hx : nth_error (c_log s') x = Some vx)
    (He : e = [] \/ e = [vx] /\ x = length (c_log s) /\ Z.to_nat (v_actor vx) = i)
    (Hrs : incl rs (v_recs vx))
    (Hall : forall r, In r (v_recs vx) ->
       In r rs \/ exists j m, nth_error (c_nodes s) j = Some m /\ knows m x = true /\ live (n_db m) r = false).

Lemma cstep_cases s o : cstep s o = s \/ absorbs s (cstep s o).
Proof.
  destruct o as [i rs|i j x extra|i x srv]; cbn [cstep].
  - destruct (nth_error (c_nodes s) i) as [n|] eqn:En; [right|left; reflexivity].
    set (vx := mkVer (Z.of_nat i) (next_version (Z.of_nat i) (c_log s)) rs).
    apply (Absorbs _ _ i n rs (length (c_log s)) vx [vx]); cbn [c_log c_nodes v_recs v_actor vx]; auto using incl_refl.
    + (* Hx *) rewrite nth_error_app2, Nat.sub_diag by lia. reflexivity.
    + (* He *) right. rewrite Nat2Z.id. auto.
  - destruct (nth_error (c_nodes s) i) as [n|] eqn:En; [|left; reflexivity].
    destruct (nth_error (c_nodes s) j) as [m|] eqn:Em; [|left; reflexivity].
    destruct (nth_error (c_log s) x) as [vx|] eqn:Ex; [|left; reflexivity].
    destruct (knows m x && negb (knows n x)) eqn:Eg; [right|left; reflexivity].
    apply andb_true_iff in Eg. destruct Eg as [Hmx _].
    apply (Absorbs _ _ i n (served m vx extra) x vx []); cbn [c_log c_nodes]; auto using app_nil_r.
    + (* Hrs *) intros r Hr. apply filter_In in Hr. apply Hr.
    + (* Hall *) intros r Hr. unfold served.
      destruct (live (n_db m) r || existsb (Z.eqb (r_seq r)) extra) eqn:Ef; [left; apply filter_In; split; assumption|].
      apply orb_false_iff in Ef as [Ef _]. right. exists j, m. auto.
  - destruct (nth_error (c_nodes s) i) as [n|] eqn:En; [|left; reflexivity].
    destruct (nth_error (c_log s) x) as [vx|] eqn:Ex; [|left; reflexivity].
    destruct (negb (knows n x)); [|left; reflexivity].
    destruct (mix (c_nodes s) x (v_recs vx) srv) as [l|] eqn:Emix; [right|left; reflexivity].
    destruct (mix_spec _ _ _ _ _ Emix) as [Hil Hall].
    apply (Absorbs _ _ i n l x vx []); cbn [c_log c_nodes]; auto using app_nil_r.
Qed.

Lemma log_ext_step s o : exists e, c_log (cstep s o) = c_log s ++ e.
Proof.
  destruct (cstep_cases s o) as [->|[i n rs x vx e Hl Hn En Hx He Hrs Hall]]; [exists []; symmetry; apply app_nil_r|exists e; exact Hl].
Qed.

(* holds for every history (CInv below only outside the excluded ones) *)
Definition sound (s : cstate) : Prop :=
  forall i nd, nth_error (c_nodes s) i = Some nd ->
  n_db nd = merge_all [] (n_merged nd) /\ incl (n_merged nd) (all_recs (c_log s)).

Lemma cstep_sound s o : sound s -> sound (cstep s o).
Proof.
  intros Hs. destruct (cstep_cases s o) as [->|[i n rs x vx e Hl Hn En Hx He Hrs Hall]]; [exact Hs|].
  intros i' nd. rewrite Hn, (nth_error_set_nth _ _ _ _ _ En). destruct (Nat.eqb_spec i' i) as [->|_].
  - intros [= <-]. destruct (Hs i n En) as [Hdb Hin]. cbn [absorb n_db n_merged]. split.
    + rewrite Hdb. symmetry. apply fold_left_app.
    + apply incl_app.
      * rewrite Hl, all_recs_app. apply incl_appl, Hin.
      * intros r Hr. eapply all_recs_nth; [exact Hx|apply Hrs, Hr].
  - intros Hnd. destruct (Hs i' nd Hnd) as [Hdb Hin]. split; [exact Hdb|].
    rewrite Hl, all_recs_app. apply incl_appl, Hin.
Qed.

Lemma cinit_sound n : sound (cinit n).
Proof.
  intros i nd Hnd. cbn in Hnd. apply nth_error_In, repeat_spec in Hnd. subst nd.
  split; [reflexivity|intros r []].
Qed.

(* no value from nowhere, cluster level: whatever a node merged was acknowledged somewhere *)
Theorem cluster_merged_is_acknowledged n ops i nd :
  nth_error (c_nodes (crun n ops)) i = Some nd ->
  n_db nd = merge_all [] (n_merged nd) /\ incl (n_merged nd) (all_recs (c_log (crun n ops))).
Proof.
  exact (fold_left_inv sound cstep ops (fun s o _ => cstep_sound s o) (cinit n) (cinit_sound n) i nd).
Qed.

Lemma top_above L r :
  exists m, (m = r \/ In m L /\ sdom r m = true) /\ forall y, In y L -> sdom m y = false.
Proof.
  induction L as [|a L [m [Hm Hmax]]]; [exists r; split; [left; reflexivity|intros y []]|].
  destruct (sdom m a) eqn:E.
  - exists a. split.
    + right. split; [left; reflexivity|]. destruct Hm as [->|[_ Hrm]]; [exact E|exact (sdom_trans _ _ _ Hrm E)].
    + intros y [<-|Hy]; [apply sdom_irrefl|exact (sdom_above _ _ _ E (Hmax y Hy))].
  - exists m. split.
    + destruct Hm as [->|[Hin H]]; [left; reflexivity|right; split; [right; exact Hin|exact H]].
    + intros y [<-|Hy]; [exact E|apply Hmax, Hy].
Qed.

Definition covered (W M : list rec) (r : rec) : Prop :=
  In r M \/ exists r', In r' W /\ r_row r' = r_row r /\ sdom r r' = true.

(* outside the excluded histories: a version a node knows is in the log, and every record of it
   is merged there or strictly below a record of the universe W *)
Definition CInv (W : list rec) (s : cstate) : Prop :=
  sound s /\
  forall i nd x, nth_error (c_nodes s) i = Some nd -> knows nd x = true ->
  exists vx, nth_error (c_log s) x = Some vx /\ forall r, In r (v_recs vx) -> covered W (n_merged nd) r.

Section Step.
Variable W : list rec.
Hypothesis Hwf : wf W.
Hypothesis Htie : pairwise tie W.

(* a record the server merged but no longer shows is strictly below a record of W *)
Lemma not_live_below M r :
  incl M W -> In r M -> live (merge_all [] M) r = false ->
  exists r', In r' W /\ r_row r' = r_row r /\ sdom r r' = true.
Proof.
  intros Hi Hr Hl. rewrite live_merge_all in Hl. set (k := r_row r) in *.
  pose proof (on_row_incl k M W Hi) as HQW.
  assert (HrQ : In r (on_row k M)) by (apply on_row_in; split; [exact Hr|reflexivity]).
  pose proof (Hwf k) as Hwk. unfold wf_row in Hwk. apply andb_true_iff in Hwk. destruct Hwk as [HokW HtopW].
  rewrite forallb_forall in HokW.
  destruct (accounted (on_row k M) k r) as [Hlv|[[r' [Hr' Hs]]|[Hp1 [Hp2 Hp3]]]];
    [intros y Hy; apply on_row_in in Hy; apply Hy
    |apply forallb_forall; intros y Hy; apply HokW, HQW, Hy
    |apply (pairwise_incl _ _ W); [exact (incl_tran (incl_filter _ M) Hi)|exact Htie]
    |exact HrQ|idtac..].
  - congruence.
  - apply on_row_in in Hr'. exists r'. split; [apply Hi, Hr'|]. split; [apply Hr'|exact Hs].
  - (* a marker of the newest generation the server merged: W has a newer record, or, being
       well-formed, a value record of that generation *)
    set (P := on_row k W) in *. apply HQW in HrQ.
    pose proof (maxcl_ub P r HrQ) as Hub. pose proof (proj1 (rec_ok_spec r) (HokW r HrQ)) as [H1 _].
    destruct (Z.eq_dec (maxcl P) (r_cl r)) as [Heq|Hne].
    + rewrite Heq, <- Z.negb_odd, Hp2 in HtopW. cbn in HtopW.
      apply existsb_exists in HtopW. destruct HtopW as [d [Hd Ht]].
      apply is_top_spec in Ht. destruct Ht as [Hsd Hcd].
      apply on_row_in in Hd. exists d. split; [apply Hd|]. split; [apply Hd|].
      rewrite sdom_level by lia. unfold is_data. rewrite Hp1, Hsd, Hcd, Hp2. reflexivity.
    + destruct (maxcl_attained P) as [r' [Hr' He]]; [lia|].
      apply on_row_in in Hr'. exists r'. split; [apply Hr'|]. split; [apply Hr'|]. apply sdom_cl. lia.
Qed.

Lemma cstep_inv s o :
  CInv W s -> incl (all_recs (c_log (cstep s o))) W -> CInv W (cstep s o).
Proof.
  intros [Hs Hc] HlW. split; [apply cstep_sound, Hs|].
  destruct (cstep_cases s o) as [E|[i n rs x vx e Hl Hn En Hx He Hrs Hall]]; [rewrite E; exact Hc|].
  rewrite Hl, all_recs_app in HlW.
  (* what was known stays where it was in the longer log *)
  assert (Hold : forall i' nd z, nth_error (c_nodes s) i' = Some nd -> knows nd z = true ->
                 exists vz, nth_error (c_log (cstep s o)) z = Some vz /\
                            forall r, In r (v_recs vz) -> covered W (n_merged nd) r).
  { intros i' nd z Hnd Hz. destruct (Hc i' nd z Hnd Hz) as [vz [Hvz Hcov]]. exists vz. split; [|exact Hcov].
    rewrite Hl, nth_error_app1; [exact Hvz|]. apply nth_error_Some. congruence. }
  intros i' nd y. rewrite Hn, (nth_error_set_nth _ _ _ _ _ En). destruct (Nat.eqb_spec i' i) as [->|_]; [|apply Hold].
  intros [= <-]. rewrite knows_absorb. cbn [absorb n_merged].
  destruct (Nat.eqb_spec y x) as [->|_]; cbn [orb]; intros Hy.
  - (* the version it receives: what it is not handed is not live at a server that merged it or
       knows it to be below a record of W *)
    exists vx. split; [exact Hx|]. intros r Hr.
    destruct (Hall r Hr) as [H|[j [m [Hm [Hmx Hlive]]]]]; [left; apply in_or_app; right; exact H|right].
    destruct (Hold j m x Hm Hmx) as [vx' [Hx' Hcov]]. replace vx' with vx in Hcov by congruence.
    destruct (Hcov r Hr) as [Hin|Hb]; [|exact Hb].
    destruct (Hs j m Hm) as [Hdbm Hinm]. rewrite Hdbm in Hlive.
    apply (not_live_below (n_merged m)); [|exact Hin|exact Hlive].
    intros z Hz. apply HlW, in_or_app. left. apply Hinm, Hz.
  - destruct (Hold i n y En Hy) as [vy [Hvy Hcov]]. exists vy. split; [exact Hvy|]. intros r Hr.
    destruct (Hcov r Hr) as [H|H]; [left; apply in_or_app; left; exact H|right; exact H].
Qed.

(* what a run keeps is "if the log lies within W then CInv": logs only grow, so a log within W
   had all its earlier stages within W *)
Lemma run_inv ops s :
  CInv W s -> incl (all_recs (c_log (fold_left cstep ops s))) W -> CInv W (fold_left cstep ops s).
Proof.
  intros Hinv. apply (fold_left_inv (fun a => incl (all_recs (c_log a)) W -> CInv W a) cstep); [|intros _; exact Hinv].
  intros a o _ IH HlW. apply cstep_inv; [|exact HlW]. apply IH.
  destruct (log_ext_step a o) as [e He]. rewrite He, all_recs_app in HlW.
  exact (proj1 (incl_app_inv _ _ HlW)).
Qed.

(* every record is merged or strictly below a MERGED record: what has nothing above it in
   its row is covered only by being merged *)
Lemma climb M :
  incl M W -> (forall r, In r W -> covered W M r) ->
  forall r, In r W -> In r M \/ exists r', In r' M /\ r_row r' = r_row r /\ sdom r r' = true.
Proof.
  intros HMW Hcov r Hr. destruct (top_above (on_row (r_row r) W) r) as [m [Hm Hmax]].
  assert (HmW : In m W /\ r_row m = r_row r) by (destruct Hm as [->|[H _]]; [auto|apply on_row_in, H]).
  destruct HmW as [HmW Hrow].
  destruct (Hcov m HmW) as [HmM|[r1 [Hr1 [Hrow1 Hs]]]].
  2:{ rewrite Hmax in Hs; [discriminate|]. apply on_row_in. split; [exact Hr1|congruence]. }
  destruct Hm as [->|[_ H]]; [left; exact HmM|right; exists m; auto].
Qed.

Lemma wf_of_cover M :
  incl M W -> (forall r, In r W -> In r M \/ exists r', In r' M /\ r_row r' = r_row r /\ sdom r r' = true) -> wf M.
Proof.
  intros HMW Hc.
  exact (proj1 (converge_dominated (fun r r' => sdom r r' = true) W M sdom_dominated Hwf HMW Hc)).
Qed.

(* omitted_is_below carries the hypothesis that clock positions are unique in its statement;
   the proof does not use it, so it is declared here, after everything else of the section *)
Hypothesis Hclk : pairwise clk_clash W.
Lemma omitted_is_below M r :
  incl M W -> In r M -> live (merge_all [] M) r = false ->
  exists r', In r' W /\ r_row r' = r_row r /\ sdom r r' = true.
Proof using W Hwf Htie Hclk. exact (not_live_below M r). Qed.

End Step.

Lemma knows_all_spec l nd : knows_all l nd = true -> forall x, (x < length l)%nat -> knows nd x = true.
Proof.
  unfold knows_all. rewrite forallb_forall. intros H x Hx. apply H. apply in_seq. lia.
Qed.

Theorem cluster_quiescent_converges n ops i nd :
  let s := crun n ops in
  let U := all_recs (c_log s) in
  wf U -> no_tie U = true ->
  nth_error (c_nodes s) i = Some nd -> knows_all (c_log s) nd = true ->
  table (n_db nd) = table (merge_all [] U) /\ versions (n_db nd) = versions (merge_all [] U).
Proof.
  intros s U Hwf Htie Hnd Hall. apply pairwise_of_bool in Htie.
  assert (Hinv : CInv U s).
  { unfold s, crun. apply run_inv; try assumption; [|apply incl_refl].
    split; [apply cinit_sound|]. intros i0 nd0 x Hnd0. apply nth_error_In, repeat_spec in Hnd0. subst nd0. discriminate. }
  destruct Hinv as [Hs Hcov]. destruct (Hs i nd Hnd) as [Hdb Hin].
  assert (HcovU : forall r, In r U -> covered U (n_merged nd) r).
  { intros r Hr. unfold U, all_recs in Hr. apply in_flat_map in Hr. destruct Hr as [vx [Hvx Hr]].
    apply In_nth_error in Hvx. destruct Hvx as [x Hx].
    assert (Hlt : (x < length (c_log s))%nat) by (apply nth_error_Some; congruence).
    destruct (Hcov i nd x Hnd (knows_all_spec _ _ Hall x Hlt)) as [vx' [Hx' Hc]]. apply Hc. congruence. }
  pose proof (climb U (n_merged nd) Hin HcovU) as Hcl.
  rewrite Hdb.
  destruct (converge_dominated (fun r r' => sdom r r' = true) U (n_merged nd) sdom_dominated Hwf Hin Hcl)
    as [_ [Ht Hv]].
  split; symmetry; assumption.
Qed.

Corollary cluster_quiescent_nodes_agree n ops i1 nd1 i2 nd2 :
  let s := crun n ops in
  let U := all_recs (c_log s) in
  wf U -> no_tie U = true ->
  nth_error (c_nodes s) i1 = Some nd1 -> knows_all (c_log s) nd1 = true ->
  nth_error (c_nodes s) i2 = Some nd2 -> knows_all (c_log s) nd2 = true ->
  table (n_db nd1) = table (n_db nd2) /\ versions (n_db nd1) = versions (n_db nd2).
Proof.
  intros s U Hwf Htie H1 K1 H2 K2.
  destruct (cluster_quiescent_converges n ops i1 nd1 Hwf Htie H1 K1) as [A1 B1].
  destruct (cluster_quiescent_converges n ops i2 nd2 Hwf Htie H2 K2) as [A2 B2].
  fold s in A1, B1, A2, B2. split; congruence.
Qed.

(* PROGRESS: a version can always be obtained from a node that knows it (its origin does); one
   session later the node knows it, if it did not already *)
Theorem cluster_pull_makes_known s i j x n m vx :
  nth_error (c_nodes s) i = Some n -> nth_error (c_nodes s) j = Some m -> nth_error (c_log s) x = Some vx ->
  knows m x = true ->
  exists n', nth_error (c_nodes (cstep s (Pull i j x []))) i = Some n' /\ knows n' x = true /\
             (forall y, knows n y = true -> knows n' y = true) /\ c_log (cstep s (Pull i j x [])) = c_log s.
Proof.
  intros En Em Ex Hm. cbn [cstep]. rewrite En, Em, Ex, Hm.
  destruct (knows n x) eqn:Hn; cbn [andb negb c_nodes c_log]; [exists n; auto|].
  eexists. rewrite (nth_error_set_nth _ _ _ _ _ En), Nat.eqb_refl. split; [reflexivity|]. split; [|split; [|reflexivity]].
  - rewrite knows_absorb, Nat.eqb_refl. reflexivity.
  - intros y Hy. rewrite knows_absorb, Hy. apply orb_true_r.
Qed.

Definition OwnKnown (s : cstate) : Prop :=
  forall x vx, nth_error (c_log s) x = Some vx ->
  exists nd, nth_error (c_nodes s) (Z.to_nat (v_actor vx)) = Some nd /\ knows nd x = true.

Lemma cstep_knows_mono s o i nd :
  nth_error (c_nodes s) i = Some nd ->
  exists nd', nth_error (c_nodes (cstep s o)) i = Some nd' /\ forall y, knows nd y = true -> knows nd' y = true.
Proof.
  intros Hnd. destruct (cstep_cases s o) as [->|[i0 n rs x vx e Hl Hn En Hx He Hrs Hall]]; [exists nd; auto|].
  rewrite Hn, (nth_error_set_nth _ _ _ _ _ En). destruct (Nat.eqb_spec i i0) as [->|_]; [|exists nd; auto].
  eexists. split; [reflexivity|]. intros y Hy. rewrite knows_absorb. replace n with nd by congruence.
  rewrite Hy. apply orb_true_r.
Qed.

Lemma cstep_own s o : OwnKnown s -> OwnKnown (cstep s o).
Proof.
  intros Hown x vx Hx. destruct (nth_error (c_log s) x) as [vx0|] eqn:Eold.
  - (* an old version: its origin still knows it *)
    destruct (log_ext_step s o) as [e He].
    rewrite He, nth_error_app1, Eold in Hx by (apply nth_error_Some; congruence). injection Hx as <-.
    destruct (Hown x vx0 Eold) as [nd [Hnd Hk]].
    destruct (cstep_knows_mono s o _ nd Hnd) as [nd' [Hnd' Hmono]].
    exists nd'. split; [exact Hnd'|apply Hmono, Hk].
  - (* the version this step appended: its origin absorbed it *)
    destruct (cstep_cases s o) as [E|[i n rs y vy e Hl Hn En Hy He Hrs Hall]]; [rewrite E in Hx; congruence|].
    destruct He as [->|[-> [-> Hact]]]; [rewrite Hl, app_nil_r in Hx; congruence|].
    apply nth_error_None in Eold.
    assert (x = length (c_log s)).
    { assert (Hlt : (x < length (c_log (cstep s o)))%nat) by (apply nth_error_Some; congruence).
      rewrite Hl, app_length in Hlt. cbn in Hlt. lia. }
    subst x. replace vx with vy by congruence.
    rewrite Hn, Hact, (nth_error_set_nth _ _ _ _ _ En), Nat.eqb_refl. eexists. split; [reflexivity|].
    rewrite knows_absorb, Nat.eqb_refl. reflexivity.
Qed.

Lemma cinit_own n : OwnKnown (cinit n).
Proof. intros x vx Hx. cbn in Hx. destruct x; discriminate. Qed.

Definition is_pull (o : cop) : Prop := match o with Local _ _ => False | _ => True end.

(* one session with the origin of version x *)
Lemma fetch_one s i nd x :
  OwnKnown s -> nth_error (c_nodes s) i = Some nd -> (x < length (c_log s))%nat ->
  exists o, is_pull o /\ c_log (cstep s o) = c_log s /\
    exists nd', nth_error (c_nodes (cstep s o)) i = Some nd' /\ knows nd' x = true /\
                forall y, knows nd y = true -> knows nd' y = true.
Proof.
  intros Hown Hnd Hx.
  destruct (nth_error (c_log s) x) as [vx|] eqn:Ex; [|apply nth_error_None in Ex; lia].
  destruct (Hown x vx Ex) as [m [Hm Hmk]].
  exists (Pull i (Z.to_nat (v_actor vx)) x []). split; [exact I|].
  destruct (cluster_pull_makes_known s i _ x nd m vx Hnd Hm Ex Hmk) as [n1 [Hn1 [Hk1 [Hmono Hl]]]].
  split; [exact Hl|]. exists n1. auto.
Qed.

Lemma fetch_all xs : forall s i nd,
  OwnKnown s -> nth_error (c_nodes s) i = Some nd ->
  (forall x, In x xs -> (x < length (c_log s))%nat) ->
  exists pulls, Forall is_pull pulls /\
    let s' := fold_left cstep pulls s in
    c_log s' = c_log s /\ OwnKnown s' /\
    exists nd', nth_error (c_nodes s') i = Some nd' /\
                (forall y, knows nd y = true -> knows nd' y = true) /\
                (forall x, In x xs -> knows nd' x = true).
Proof.
  induction xs as [|x xs IH]; intros s i nd Hown Hnd Hlt.
  - exists []. split; [constructor|]. cbn. split; [reflexivity|]. split; [exact Hown|].
    exists nd. split; [exact Hnd|]. split; [auto|intros x []].
  - destruct (fetch_one s i nd x Hown Hnd) as [o [Ho [Hl1 [n1 [Hn1 [Hk1 Hmono1]]]]]]; [apply Hlt; left; reflexivity|].
    destruct (IH (cstep s o) i n1) as [pulls [Hp [Hl [Hown' [nd' [Hnd' [Hm' Hall]]]]]]];
      [apply cstep_own, Hown|exact Hn1| |].
    { intros y Hy. rewrite Hl1. apply Hlt. right. exact Hy. }
    exists (o :: pulls). split; [constructor; assumption|]. cbv zeta in *. cbn [fold_left].
    split; [rewrite Hl; exact Hl1|]. split; [exact Hown'|].
    exists nd'. split; [exact Hnd'|]. split; [intros y Hy; apply Hm', Hmono1, Hy|].
    intros y [<-|Hy]; [apply Hm', Hk1|apply Hall, Hy].
Qed.

(* PROGRESS: from every reachable state, without any further write, every node can be brought to
   know every acknowledged version by sessions with the versions' origins alone *)
Theorem cluster_node_can_catch_up n ops i nd :
  nth_error (c_nodes (crun n ops)) i = Some nd ->
  exists pulls, Forall is_pull pulls /\
    let s' := fold_left cstep pulls (crun n ops) in
    c_log s' = c_log (crun n ops) /\
    exists nd', nth_error (c_nodes s') i = Some nd' /\ knows_all (c_log s') nd' = true.
Proof.
  intros Hnd.
  assert (Hown : OwnKnown (crun n ops)) by (apply (fold_left_inv OwnKnown cstep); [intros s o _; apply cstep_own|apply cinit_own]).
  destruct (fetch_all (seq 0 (length (c_log (crun n ops)))) (crun n ops) i nd Hown Hnd) as [pulls [Hp [Hl [_ [nd' [Hnd' [_ Hall]]]]]]].
  { intros x Hx. apply in_seq in Hx. lia. }
  exists pulls. split; [exact Hp|]. cbv zeta in *. split; [exact Hl|].
  exists nd'. split; [exact Hnd'|].
  unfold knows_all. rewrite Hl. apply forallb_forall. exact Hall.
Qed.

(* safety + progress: every node of every reachable state can, by sessions alone, reach a state
   in which it shows the merge of everything acknowledged *)
Theorem cluster_every_node_can_converge n ops i nd :
  let U := all_recs (c_log (crun n ops)) in
  wf U -> no_tie U = true ->
  nth_error (c_nodes (crun n ops)) i = Some nd ->
  exists pulls, Forall is_pull pulls /\
    let s' := crun n (ops ++ pulls) in
    c_log s' = c_log (crun n ops) /\
    exists nd', nth_error (c_nodes s') i = Some nd' /\
                table (n_db nd') = table (merge_all [] U) /\ versions (n_db nd') = versions (merge_all [] U).
Proof.
  intros U Hwf Htie Hnd.
  destruct (cluster_node_can_catch_up n ops i nd Hnd) as [pulls [Hp [Hl [nd' [Hnd' Hall]]]]].
  exists pulls. split; [exact Hp|]. cbv zeta in *.
  replace (fold_left cstep pulls (crun n ops)) with (crun n (ops ++ pulls)) in * by apply fold_left_app.
  split; [exact Hl|]. exists nd'. split; [exact Hnd'|].
  unfold U in *. rewrite <- Hl in Hwf, Htie |- *. apply (cluster_quiescent_converges n (ops ++ pulls) i nd'); assumption.
Qed.

Lemma shown_value_was_merged Q s c :
  stL Q = Some s -> rw_col s = Some c -> exists r, In r Q /\ r_val r = c_val c.
Proof.
  revert s c. unfold stL.
  apply (fold_left_hist (fun h o => forall s c, o = Some s -> rw_col s = Some c -> exists r, In r h /\ r_val r = c_val c)
                        merge_row Q) with (h := []); [|discriminate].
  intros h o x _ IH s c Hs Hc.
  destruct (merge_value_origin o x s c Hs Hc) as [Hv|[s0 [c0 [Hs0 [Hc0 Hv]]]]].
  - exists x. split; [apply in_snoc; right; reflexivity|symmetry; exact Hv].
  - destruct (IH s0 c0 Hs0 Hc0) as [r [Hr Hrv]]. exists r. split; [apply in_snoc; left; exact Hr|congruence].
Qed.

Lemma table_in d k v : In (k, v) (table d) -> exists s, In (k, s) d /\ Z.odd (rw_cl s) = true /\
  v = match rw_col s with Some c => Some (c_val c) | None => None end.
Proof.
  unfold table. intros H. apply in_flat_map in H. destruct H as [[k' s] [Hin H]]. cbn [fst snd] in H.
  destruct (Z.odd (rw_cl s)) eqn:E; [|destruct H]. destruct H as [H|[]]. injection H as -> <-. exists s. auto.
Qed.

Theorem cluster_shown_values_were_acknowledged n ops i nd k v :
  nth_error (c_nodes (crun n ops)) i = Some nd -> In (k, Some v) (table (n_db nd)) ->
  exists r, In r (all_recs (c_log (crun n ops))) /\ r_row r = k /\ r_val r = v.
Proof.
  intros Hnd Hin.
  destruct (cluster_merged_is_acknowledged n ops i nd Hnd) as [Hdb Hsub].
  apply table_in in Hin. destruct Hin as [s [Hks [_ Hv]]].
  destruct (rw_col s) as [c|] eqn:Ec; [|discriminate]. injection Hv as ->.
  assert (Hget : dget k (n_db nd) = Some s).
  { apply in_sorted_dget; [|exact Hks]. rewrite Hdb. apply merge_all_sorted. exact I. }
  rewrite Hdb, merge_all_get in Hget. cbn [dget] in Hget.
  destruct (shown_value_was_merged (on_row k (n_merged nd)) s c Hget Ec) as [r [Hr Hrv]].
  apply on_row_in in Hr. exists r. split; [apply Hsub, Hr|]. split; [apply Hr|exact Hrv].
Qed.
