(* C08: the chunk iterator ChunkedChanges::next and chunk_range (Model/Chunk.v); [chunks_spec],
   [range_spec]: the property as propositions. *)
From Coq Require Import List ZArith Bool Lia.
From Corro Require Import Lib.ListFacts Model.Chunk.
Import ListNotations.
Open Scope Z_scope.

Inductive tiles : Z -> Z -> list (Z * Z) -> Prop :=
| tiles_one a b : a <= b -> tiles a b [(a, b)]
| tiles_cons a x last rs :
    a <= x -> tiles (x + 1) last rs -> tiles a last ((a, x) :: rs).

Definition chunk_in_range (ch : chunk) : Prop :=
  Forall (fun c => fst (snd ch) <= c_seq c <= snd (snd ch)) (fst ch).

Definition chunks_spec (cs : list chg) (start last : Z) (out : list chunk) : Prop :=
  tiles start last (map snd out) /\
  concat (map fst out) = cs /\
  Forall chunk_in_range out.

Lemma tiles_bounds a last rs : tiles a last rs ->
  a <= last /\ forall p, In p rs -> a <= fst p /\ fst p <= snd p /\ snd p <= last.
Proof.
  induction 1 as [x y Hxy|x y l rs Hxy Ht [IH1 IH2]].
  - split; [lia|]. intros p [<-|[]]. cbn. lia.
  - split; [lia|]. intros p [<-|Hp]; [cbn; lia|]. destruct (IH2 p Hp). lia.
Qed.

Lemma tiles_whole a last rs : tiles a last rs -> In (a, last) rs -> rs = [(a, last)].
Proof.
  intros Ht Hin. destruct Ht as [a b Hab|a x last rs Hax Ht]; [reflexivity|exfalso].
  destruct (tiles_bounds _ _ _ Ht) as [Hle Hall]. destruct Hin as [[= ->]|Hin]; [lia|].
  destruct (Hall _ Hin) as [H1 _]. cbn in H1. lia.
Qed.

Lemma sorted_seq_weaken a b cs : a <= b -> sorted_seq b cs = true -> sorted_seq a cs = true.
Proof.
  destruct cs as [|c cs]; cbn [sorted_seq]; intros Hab H; [reflexivity|].
  apply andb_true_iff in H as [H1 H2]. apply andb_true_iff; split; [lia|exact H2].
Qed.

(* The inner loop of next() as a relation, one constructor per way out of it (Model/Chunk.v
   lists them): rows exhausted, the pushed seq is last_seq, the limit reached on the last row,
   the limit reached with rows left (an intermediate chunk), or the row is pushed and the loop
   goes on. *)
Inductive Take (limit lseq : Z) : list chg -> Z -> list chg -> list chg -> option Z -> Prop :=
| Take_nil size : Take limit lseq [] size [] [] None
| Take_last c rs size : c_seq c = lseq -> Take limit lseq (c :: rs) size [c] rs None
| Take_end c size : c_seq c <> lseq -> limit <= size + c_size c -> Take limit lseq [c] size [c] [] None
| Take_cut c c' rs size : c_seq c <> lseq -> limit <= size + c_size c ->
    Take limit lseq (c :: c' :: rs) size [c] (c' :: rs) (Some (c_seq c))
| Take_more c rs size t r e : c_seq c <> lseq -> size + c_size c < limit ->
    Take limit lseq rs (size + c_size c) t r e -> Take limit lseq (c :: rs) size (c :: t) r e.

Lemma take_Take limit lseq : forall rs size t r e,
  take limit lseq rs size = (t, r, e) -> Take limit lseq rs size t r e.
Proof.
  induction rs as [|c rs IH]; intros size t r e Ht; cbn [take] in Ht.
  - injection Ht as <- <- <-. constructor.
  - destruct (Z.eqb_spec (c_seq c) lseq) as [E|E]; [injection Ht as <- <- <-; constructor; exact E|].
    destruct (Z.leb_spec limit (size + c_size c)) as [L|L].
    + destruct rs; injection Ht as <- <- <-; constructor; assumption.
    + destruct (take limit lseq rs (size + c_size c)) as [[t' r'] e'] eqn:Hrec. injection Ht as <- <- <-.
      apply Take_more; [exact E|exact L|apply IH, Hrec].
Qed.

(* the invariant of the outer loop: what one chunk leaves is a well-formed remainder again *)
Lemma take_spec limit lseq rs size a t r e :
  take limit lseq rs size = (t, r, e) ->
  sorted_seq a rs = true ->
  forallb (fun c => c_seq c <=? lseq) rs = true ->
  rs = t ++ r /\
  chunk_in_range (t, (a, match e with Some s => s | None => lseq end)) /\
  match e with
  | None => r = []
  | Some s => a <= s < lseq /\ sorted_seq (s + 1) r = true /\ forallb (fun c => c_seq c <=? lseq) r = true
  end.
Proof.
  unfold chunk_in_range. cbn [fst snd].
  intros Ht. apply take_Take in Ht. revert a.
  induction Ht as [size|c rs size E|c size E L|c c' rs size E L|c rs size t r e E L Ht IH]; intros a Hs Hb.
  1: (* Take_nil *) repeat split; constructor.
  all: apply andb_prop in Hs as [Hs1 Hs2]; apply andb_prop in Hb as [Hb1 Hb2].
  - (* Take_last, seq c = lseq: nothing can follow *)
    assert (rs = []) as ->.
    { destruct rs as [|c' rs']; [reflexivity|exfalso].
      apply andb_prop in Hs2 as [Hx _]. apply andb_prop in Hb2 as [Hy _]. lia. }
    repeat split. constructor; [lia|constructor].
  - (* Take_end *) repeat split. constructor; [lia|constructor].
  - (* Take_cut *) split; [reflexivity|]. split; [constructor; [lia|constructor]|].
    split; [lia|]. split; assumption.
  - (* Take_more *) pose proof (IH (c_seq c + 1) Hs2 Hb2) as (Hcat & Hin & He).
    split; [cbn; apply f_equal, Hcat|]. split.
    { constructor; [destruct e; lia|]. eapply Forall_impl; [|exact Hin]. cbn; intros; lia. }
    destruct e as [s|]; [|exact He]. destruct He as (Has & Hsr & Hbr). split; [lia|split; assumption].
Qed.

Lemma take_nonempty limit lseq : forall rs size t r e, rs <> [] -> take limit lseq rs size = (t, r, e) -> t <> [].
Proof.
  intros rs size t r e Hne Ht. apply take_Take in Ht. destruct Ht; [contradiction|discriminate..].
Qed.

(* while a message is being filled it is below the limit *)
Lemma take_size limit lseq rs size t r e :
  take limit lseq rs size = (t, r, e) ->
  Nat.leb (length t) 1 || (size + sumsz (removelast t) <? limit) = true.
Proof.
  intros Ht. apply take_Take in Ht.
  induction Ht as [size|c rs size E|c size E L|c c' rs size E L|c rs size t r e E L Ht IH]; try reflexivity.
  destruct t as [|c1 [|c2 t3]]; [reflexivity|apply Z.ltb_lt; cbn; lia|].
  apply Z.ltb_lt in IH. apply Z.ltb_lt. unfold sumsz in *. cbn [removelast fold_right] in *. lia.
Qed.

Lemma next_size limit st ch st' : next limit st = Some (ch, st') -> size_ok_b limit ch = true.
Proof.
  unfold next. destruct (done st); [discriminate|].
  destruct (take limit (last_seq st) (rest st) 0) as [[t r] e] eqn:Ht.
  destruct e; intros [= <- _]; exact (take_size _ _ _ _ _ _ _ Ht).
Qed.

Theorem run_sizes : forall lims st out stf, run lims st = (out, stf) -> sizes_ok_b lims out = true.
Proof.
  induction lims as [|l lims IH]; intros st out stf Hr; cbn in Hr.
  - injection Hr as <- _. reflexivity.
  - destruct (next l st) as [[ch st']|] eqn:En; [|injection Hr as <- _; reflexivity].
    destruct (run lims st') as [chs stf'] eqn:Er. injection Hr as <- _.
    cbn. rewrite (next_size _ _ _ _ En), (IH _ _ _ Er). reflexivity.
Qed.

(* an intermediate chunk is not empty, so the remainder is strictly shorter *)
Lemma take_length limit lseq rs size t r s :
  take limit lseq rs size = (t, r, Some s) -> (length r < length rs)%nat.
Proof.
  intros Ht. apply take_Take in Ht. remember (Some s) as e eqn:He.
  induction Ht as [size|c rs size E|c size E L|c c' rs size E L|c rs size t r e E L Ht IH]; try discriminate He; cbn [length].
  - lia.
  - specialize (IH He). lia.
Qed.

Lemma run_done lims st : done st = true -> run lims st = ([], st).
Proof. intros H. destruct lims; [reflexivity|]. cbn [run]. unfold next. rewrite H. reflexivity. Qed.

Lemma wf_input_split cs start last :
  wf_input cs start last = true <->
  start <= last /\ sorted_seq start cs = true /\ forallb (fun c => c_seq c <=? last) cs = true.
Proof. unfold wf_input. rewrite <- andb_assoc. b2p. Qed.

(* each call consumes at least one row or finishes, so one more limit than rows is enough:
   induction on the limits, the remainder shrinking with them *)
Lemma run_tiles cs start last lims out stf :
  wf_input cs start last = true ->
  (length cs < length lims)%nat ->
  run lims (start_cursor cs start last) = (out, stf) ->
  done stf = true /\ chunks_spec cs start last out.
Proof.
  unfold start_cursor. revert cs start out stf.
  induction lims as [|l lims IH]; intros cs a out stf Hwf Hl Hrun; [cbn in Hl; lia|].
  apply wf_input_split in Hwf as (Hal & Hs & Hb).
  cbn [run next done rest last_seq last_start] in Hrun.
  destruct (take l last cs 0) as [[t r] e] eqn:Ht.
  pose proof (take_spec _ _ _ _ a _ _ _ Ht Hs Hb) as (Hcat & Hcr & He).
  destruct e as [s|].
  - destruct He as (Has & Hsr & Hbr).
    pose proof (take_length _ _ _ _ _ _ _ Ht) as Hlen.
    destruct (run lims (mkCur r (s + 1) last false)) as [chs stf'] eqn:Hrec.
    injection Hrun as <- <-.
    assert (Hwf : wf_input r (s + 1) last = true) by (apply wf_input_split; split; [lia|split; assumption]).
    pose proof (IH r (s + 1) _ _ Hwf ltac:(cbn in Hl; lia) Hrec) as (Hd & Htl & Hcc & Hin).
    split; [exact Hd|].
    split; [cbn; apply tiles_cons; [lia|exact Htl]|].
    split; [cbn; rewrite Hcc; symmetry; exact Hcat|].
    constructor; [exact Hcr|exact Hin].
  - subst r. rewrite app_nil_r in Hcat. subst t.
    rewrite run_done in Hrun by reflexivity. injection Hrun as <- <-.
    split; [reflexivity|].
    split; [cbn; apply tiles_one; lia|].
    split; [cbn; apply app_nil_r|].
    constructor; [exact Hcr|constructor].
Qed.

Lemma run_then_none cs start last lims out stf l :
  wf_input cs start last = true ->
  (length cs < length lims)%nat ->
  run lims (start_cursor cs start last) = (out, stf) ->
  next l stf = None.
Proof.
  intros Hwf Hl Hrun. destruct (run_tiles _ _ _ _ _ _ Hwf Hl Hrun) as [Hd _].
  unfold next. rewrite Hd. reflexivity.
Qed.

(* the schedule every caller uses: one limit, as often as there are rows and once more *)
Lemma run_repeat_tiles limit cs a b : wf_input cs a b = true ->
  chunks_spec cs a b (fst (run (repeat limit (S (length cs))) (start_cursor cs a b))).
Proof.
  intros Hwf. destruct (run _ _) as [out stf] eqn:Hrun.
  refine (proj2 (run_tiles cs a b _ out stf Hwf _ Hrun)). rewrite repeat_length. apply Nat.lt_succ_diag_r.
Qed.

Lemma empty_single_chunk start last l lims :
  fst (run (l :: lims) (start_cursor [] start last)) = [([], (start, last))].
Proof. cbn. destruct lims; reflexivity. Qed.

(* the prefix of the rows up to and including the first row whose seq is lseq: what is served
   for EVERY input, with no ordering hypothesis at all (run_serves_upto) *)
Fixpoint upto (lseq : Z) (cs : list chg) : list chg :=
  match cs with
  | [] => []
  | c :: cs' => if c_seq c =? lseq then [c] else c :: upto lseq cs'
  end.

Lemma take_upto limit lseq rs size t r e :
  take limit lseq rs size = (t, r, e) ->
  upto lseq rs = t ++ match e with None => [] | Some _ => upto lseq r end.
Proof.
  intros Ht. apply take_Take in Ht.
  induction Ht as [size|c rs size E|c size E L|c c' rs size E L|c rs size t r e E L Ht IH]; cbn [upto app].
  - reflexivity.
  - rewrite (proj2 (Z.eqb_eq _ _) E). reflexivity.
  - rewrite (proj2 (Z.eqb_neq _ _) E). reflexivity.
  - rewrite (proj2 (Z.eqb_neq _ _) E). reflexivity.
  - rewrite (proj2 (Z.eqb_neq _ _) E), IH. reflexivity.
Qed.

(* With strictly increasing seqs the prefix [upto last cs] is everything (run_tiles); with
   two rows under one seq = last_seq (a relay after a resurrecting merge) the second one is
   never sent -- the exact boundary of the known finding resurrect-duplicate-seq. *)
Lemma run_serves_upto cs start last lims out stf :
  (length cs < length lims)%nat ->
  run lims (start_cursor cs start last) = (out, stf) ->
  concat (map fst out) = upto last cs.
Proof.
  unfold start_cursor. revert cs start out stf.
  induction lims as [|l lims IH]; intros cs a out stf Hl Hrun; [cbn in Hl; lia|].
  cbn [run next done rest last_seq last_start] in Hrun.
  destruct (take l last cs 0) as [[t r] e] eqn:Ht.
  pose proof (take_upto _ _ _ _ _ _ _ Ht) as Hu.
  destruct e as [s|].
  - pose proof (take_length _ _ _ _ _ _ _ Ht) as Hlen.
    destruct (run lims (mkCur r (s + 1) last false)) as [chs stf'] eqn:Hrec.
    injection Hrun as <- <-. cbn [map concat fst].
    rewrite (IH r (s + 1) _ _ ltac:(cbn in Hl; lia) Hrec). symmetry. exact Hu.
  - rewrite run_done in Hrun by reflexivity. injection Hrun as <- <-. symmetry. exact Hu.
Qed.

Lemma upto_all last cs :
  upto last cs = cs <->
  (forall pre c post, cs = pre ++ c :: post -> c_seq c = last -> post = []).
Proof.
  split.
  - intros H pre c post -> E. induction pre as [|p pre IH]; cbn [upto app] in H.
    + rewrite (proj2 (Z.eqb_eq _ _) E) in H. injection H as <-. reflexivity.
    + destruct (c_seq p =? last); injection H as H; [destruct pre; discriminate H|exact (IH H)].
  - induction cs as [|c cs IH]; intros H; [reflexivity|]. cbn [upto].
    destruct (Z.eqb_spec (c_seq c) last) as [E|_].
    + rewrite (H [] c cs eq_refl E). reflexivity.
    + apply f_equal, IH. intros pre c' post ->. exact (H (c :: pre) c' post eq_refl).
Qed.

Lemma tiles_b_iff a last rs : tiles_b a last rs = true <-> tiles a last rs.
Proof.
  revert a; induction rs as [|[x y] rs IH]; intros a; [split; [discriminate|inversion 1]|].
  cbn [tiles_b]. destruct rs as [|p rs'].
  - etransitivity; [b2p|]. split.
    + intros [[-> H] ->]. apply tiles_one, H.
    + inversion 1 as [|? ? ? ? ? Ht]; [auto|inversion Ht].
  - etransitivity; [apply andb_iff; [b2p|apply IH]|]. split.
    + intros [[-> H] Ht]. apply tiles_cons; assumption.
    + inversion 1. auto.
Qed.

Lemma chg_eqb_eq a b : chg_eqb a b = true <-> a = b.
Proof.
  destruct a, b; unfold chg_eqb; cbn. rewrite !andb_true_iff. split.
  - intros [[H1 H2] H3]. f_equal; lia.
  - inversion 1; subst. repeat split; lia.
Qed.

Lemma list_eqb_eq {A} (eqb : A -> A -> bool) :
  (forall a b, eqb a b = true <-> a = b) ->
  forall xs ys, list_eqb eqb xs ys = true <-> xs = ys.
Proof. intros Heq. apply (list_eqb_spec eqb); [exact Heq|intros [|x a] [|y b]; reflexivity]. Qed.

Lemma in_range_b_iff ch : in_range_b ch = true <-> chunk_in_range ch.
Proof.
  unfold in_range_b, chunk_in_range. rewrite forallb_forall, Forall_forall.
  split; intros H c Hc; specialize (H c Hc).
  - apply andb_true_iff in H. lia.
  - apply andb_true_iff. lia.
Qed.

Lemma check_chunks_iff cs start last out :
  check_chunks cs start last out = true <-> chunks_spec cs start last out.
Proof.
  unfold check_chunks, chunks_spec. rewrite <- andb_assoc.
  apply andb_iff; [apply tiles_b_iff|]. apply andb_iff; [apply list_eqb_eq, chg_eqb_eq|].
  rewrite forallb_forall, Forall_forall. split; intros H ch Hch; apply in_range_b_iff, H, Hch.
Qed.

Definition range_spec (s e : Z) (bs : list (Z * Z)) : Prop :=
  (forall b, In b bs -> s <= fst b /\ fst b <= snd b /\ snd b <= e) /\
  (forall x, s <= x <= e -> exists b, In b bs /\ fst b <= x <= snd b).

Lemma rtiles_b_cons s e k a b rest :
  rtiles_b s e k ((a, b) :: rest) = true <->
  (a = s /\ a <= b /\ b - a + 1 <= k) /\
  match rest with [] => b = e | _ => b < e /\ rtiles_b (b + 1) e k rest = true end.
Proof. cbn [rtiles_b]. apply andb_iff; [rewrite <- andb_assoc; b2p|]. destruct rest; b2p. Qed.

(* enough fuel, said without division: each block uses up k versions *)
Lemma chunk_range_fuel_tiles k e : 1 <= k -> forall fuel s,
  s <= e -> e - s < k * Z.of_nat fuel -> rtiles_b s e k (chunk_range_fuel fuel s e k) = true.
Proof.
  intros Hk. induction fuel as [|f IH]; intros s Hse Hf; [lia|].
  cbn [chunk_range_fuel]. rewrite (proj2 (Z.leb_le s e) Hse). apply rtiles_b_cons. split; [lia|].
  destruct (Z_lt_le_dec e (s + k)) as [Hlast|Hmore].
  - destruct f; cbn [chunk_range_fuel]; [|rewrite (proj2 (Z.leb_gt _ _) Hlast)]; lia.
  - specialize (IH (s + k) ltac:(lia) ltac:(lia)). replace (Z.min (s + (k - 1)) e + 1) with (s + k) by lia.
    destruct (chunk_range_fuel f (s + k) e k); [discriminate IH|]. split; [lia|exact IH].
Qed.

(* the blocks partition the range and hold at most k versions each *)
Theorem chunk_range_tiles s e k : 1 <= k -> s <= e -> rtiles_b s e k (chunk_range s e k) = true.
Proof.
  intros Hk Hse. unfold chunk_range. apply chunk_range_fuel_tiles; [exact Hk|exact Hse|].
  assert (0 <= (e - s) / k) by (apply Z.div_pos; lia).
  rewrite Z2Nat.id by lia. apply Z.mul_succ_div_gt. lia.
Qed.

Lemma rtiles_range k : forall bs s e, rtiles_b s e k bs = true -> range_spec s e bs.
Proof.
  induction bs as [|[a b] rest IH]; intros s e H; [discriminate|].
  apply rtiles_b_cons in H as [(-> & H2 & _) H4]. destruct rest as [|p rest'].
  - subst b. split; [intros x [<-|[]]; cbn; lia|].
    intros x Hx. exists (s, e). split; [left; reflexivity|exact Hx].
  - destruct H4 as [H4 H5]. destruct (IH (b + 1) e H5) as [I1 I2]. split.
    + intros x [<-|Hx]; [cbn; lia|]. destruct (I1 x Hx). lia.
    + intros x Hx. destruct (Z_le_gt_dec x b) as [Hxb|Hxb]; [exists (s, b); split; [left; reflexivity|cbn; lia]|].
      pose proof (I2 x ltac:(lia)) as (bb & Hbb & Hx'). exists bb. split; [right; exact Hbb|exact Hx'].
Qed.

Lemma chunk_range_spec s e k : 1 <= k -> s <= e -> range_spec s e (chunk_range s e k).
Proof. intros Hk Hse. exact (rtiles_range k _ s e (chunk_range_tiles s e k Hk Hse)). Qed.

Lemma In_zseq x s e : In x (zseq s e) <-> s <= x <= e.
Proof. exact (In_seqZ x s e). Qed.

Lemma check_chunk_range_iff s e bs :
  check_chunk_range s e bs = true <-> range_spec s e bs.
Proof.
  unfold check_chunk_range, range_spec, blocks_ok_b, covers_b. apply andb_iff; rewrite forallb_forall.
  - split; intros H b Hb; specialize (H b Hb).
    + rewrite !andb_true_iff in H. lia.
    + rewrite !andb_true_iff. lia.
  - split; intros H x Hx.
    + apply In_zseq, H, existsb_exists in Hx as (b & Hb & Hin). exists b. split; [exact Hb|].
      unfold in_block_b in Hin. apply andb_true_iff in Hin. lia.
    + apply In_zseq, H in Hx as (b & Hb & Hin). apply existsb_exists. exists b. split; [exact Hb|].
      unfold in_block_b. apply andb_true_iff. lia.
Qed.
