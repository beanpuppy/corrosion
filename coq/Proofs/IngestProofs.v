(* The duplicate-suppression cache of handle_changes stays backed by live changes (C10).  The
   invariant InvOn is taken relative to a list of live changes, so that every step reads "the
   list changes, the cache follows". *)
From Coq Require Import List ZArith Bool Lia FinFun.
From Corro Require Import Lib.Ivl Lib.ListFacts Model.Ingest.
Import ListNotations.
Open Scope Z_scope.

Lemma key_eqb_eq a b : key_eqb a b = true <-> a = b.
Proof.
  destruct a, b; unfold key_eqb; cbn. rewrite andb_true_iff, !Z.eqb_eq.
  split; [intros [-> ->]; reflexivity|inversion 1; auto].
Qed.

Lemma key_eqbP a b : reflect (a = b) (key_eqb a b).
Proof. apply iff_reflect. symmetry. apply key_eqb_eq. Qed.

Lemma sget_sset s k k' v : sget k' (sset k v s) = if key_eqb k' k then Some v else sget k' s.
Proof.
  induction s as [|[k0 v0] s IH]; cbn; [reflexivity|].
  destruct (key_eqbP k k0) as [->|Hne]; cbn; [destruct (key_eqb k' k0); reflexivity|].
  rewrite IH. destruct (key_eqbP k' k0) as [->|]; [|reflexivity].
  destruct (key_eqbP k0 k); [congruence|reflexivity].
Qed.

Lemma sget_sdel s k k' : sget k' (sdel k s) = if key_eqb k' k then None else sget k' s.
Proof.
  induction s as [|[k0 v0] s IH]; cbn; [destruct (key_eqb k' k); reflexivity|].
  destruct (key_eqbP k k0) as [->|Hne]; cbn; rewrite IH; [destruct (key_eqb k' k0); reflexivity|].
  destruct (key_eqbP k' k0) as [->|]; [|reflexivity].
  destruct (key_eqbP k0 k); [congruence|reflexivity].
Qed.

Lemma sget_In s k v : sget k s = Some v -> In k (map fst s).
Proof.
  induction s as [|[k0 v0] s IH]; cbn; [discriminate|].
  destruct (key_eqbP k k0) as [->|]; [left; reflexivity|right; apply IH; assumption].
Qed.

Lemma keys_sset s k v x : In x (map fst (sset k v s)) -> k = x \/ In x (map fst s).
Proof.
  induction s as [|[k0 v0] s IH]; cbn; [auto|].
  destruct (key_eqbP k k0) as [->|]; cbn; [auto|]. intros [H|H]; [auto|]. apply IH in H as [H|H]; auto.
Qed.

Lemma NoDup_sset s k v : NoDup (map fst s) -> NoDup (map fst (sset k v s)).
Proof.
  induction s as [|[k0 v0] s IH]; intros H; cbn; [constructor; [intros []|constructor]|].
  cbn in H. inversion H as [|? ? Hn Hnd]; subst.
  destruct (key_eqbP k k0) as [->|Hne]; cbn; constructor; auto.
  intros Hin. apply keys_sset in Hin. destruct Hin as [<-|Hin]; contradiction.
Qed.

Lemma keys_sdel s k : map fst (sdel k s) = filter (fun x => negb (key_eqb k x)) (map fst s).
Proof. induction s as [|[k0 v0] s IH]; cbn; [reflexivity|]. destruct (key_eqb k k0); cbn; congruence. Qed.

Lemma NoDup_sdel s k : NoDup (map fst s) -> NoDup (map fst (sdel k s)).
Proof. rewrite keys_sdel. apply NoDup_filter. Qed.

Definition wf_chg (c : chg) : Prop :=
  g_lo c <= g_hi c /\
  match g_seqs c with Some (s, e) => g_lo c = g_hi c /\ 0 <= s <= e | None => True end.

Lemma wf_seqs c x y : wf_chg c -> g_seqs c = Some (x, y) -> x <= y.
Proof. intros [_ Hw] Es. rewrite Es in Hw. lia. Qed.

Lemma In_versions c v : In v (versions_of c) <-> g_lo c <= v <= g_hi c.
Proof. exact (In_seqZ v (g_lo c) (g_hi c)). Qed.

Lemma NoDup_versions c : NoDup (versions_of c).
Proof. apply Injective_map_NoDup; [intros x y H; lia|apply seq_NoDup]. Qed.

Lemma about_iff a v c : about a v c = true <-> g_actor c = a /\ g_lo c <= v <= g_hi c.
Proof. unfold about. etransitivity; [b2p|apply and_assoc]. Qed.

Lemma carries_iff a v q c : carries a v q c = true <->
  about a v c = true /\ exists s e, g_seqs c = Some (s, e) /\ s <= q <= e.
Proof.
  unfold carries. rewrite andb_true_iff. apply and_iff_compat_l. destruct (g_seqs c) as [[s e]|].
  - etransitivity; [b2p|]. split; [intros H; exists s, e; auto|intros (s' & e' & [= <- <-] & H); exact H].
  - split; [discriminate|intros (s & e & [=] & _)].
Qed.

(* forget and record both run over the versions of one change and rewrite the entry of
   (actor, version): if one step replaces the entry of its key by [g] of it and leaves the
   others alone, the whole run does that to exactly the entries the change is about. *)
Lemma sget_fold_versions (step : seen_t -> Z -> seen_t) (g : option iset -> option iset) c :
  (forall s v k, sget k (step s v) = if key_eqb k (g_actor c, v) then g (sget k s) else sget k s) ->
  forall s a v, sget (a, v) (fold_left step (versions_of c) s) =
                if about a v c then g (sget (a, v) s) else sget (a, v) s.
Proof.
  intros Hstep s a v.
  assert (Hoff : forall vs s, (a = g_actor c -> ~ In v vs) -> sget (a, v) (fold_left step vs s) = sget (a, v) s).
  { induction vs as [|v0 vs IH]; intros s0 Hn; cbn [fold_left]; [reflexivity|].
    rewrite IH, Hstep; [|intros Ea Hin; exact (Hn Ea (or_intror Hin))].
    destruct (key_eqbP (a, v) (g_actor c, v0)) as [[= Ea Ev]|]; [|reflexivity].
    destruct (Hn Ea (or_introl (eq_sym Ev))). }
  destruct (about a v c) eqn:E.
  - (* v comes once among the versions of c *)
    apply about_iff in E as [<- Hv]. pose proof (NoDup_versions c) as Hnd.
    apply In_versions, in_split in Hv as (l1 & l2 & El). rewrite El in *.
    apply NoDup_remove_2 in Hnd. rewrite fold_left_app. cbn [fold_left].
    rewrite Hoff, Hstep, Hoff by (intros _ H; apply Hnd, in_or_app; auto).
    destruct (key_eqbP (g_actor c, v) (g_actor c, v)); [reflexivity|contradiction].
  - apply Hoff. intros Ea Hv. apply In_versions in Hv. rewrite (proj2 (about_iff a v c)) in E; [discriminate|auto].
Qed.

(* what forgetting d leaves of an entry d is about *)
Definition forget1 (d : chg) (o : option iset) : option iset :=
  match o, g_seqs d with
  | Some ss, Some (x, y) => match rem x y ss with [] => None | r => Some r end
  | _, _ => None
  end.

Lemma sget_forget d s a v :
  sget (a, v) (forget s d) = if about a v d then forget1 d (sget (a, v) s) else sget (a, v) s.
Proof.
  apply sget_fold_versions. clear. intros s v k. cbv zeta. unfold forget1.
  destruct (sget (g_actor d, v) s) as [ss|] eqn:E.
  - destruct (g_seqs d) as [[x y]|]; [destruct (rem x y ss) eqn:Er|].
    + (* nothing is left of the entry: it goes *)
      rewrite sget_sdel. destruct (key_eqbP k (g_actor d, v)) as [->|]; [rewrite E, Er|]; reflexivity.
    + (* what is left replaces it *)
      rewrite sget_sset. destruct (key_eqbP k (g_actor d, v)) as [->|]; [rewrite E, Er|]; reflexivity.
    + (* d has no seqs: the entry goes *)
      rewrite sget_sdel. destruct (key_eqbP k (g_actor d, v)) as [->|]; [rewrite E|]; reflexivity.
  - destruct (key_eqbP k (g_actor d, v)) as [->|]; [rewrite E|]; reflexivity.
Qed.

Lemma NoDup_forget d s : NoDup (map fst s) -> NoDup (map fst (forget s d)).
Proof.
  apply (fold_left_inv (fun s => NoDup (map fst s))). clear. intros s v _ H. cbv zeta.
  destruct (sget _ s) as [ss|]; [|exact H].
  destruct (g_seqs d) as [[x y]|]; [destruct (rem x y ss)|]; auto using NoDup_sdel, NoDup_sset.
Qed.

Definition record1 (c : chg) (o : option iset) : option iset :=
  let cur := match o with Some ss => ss | None => [] end in
  Some (match g_seqs c with Some (x, y) => ins x y cur | None => cur end).

Lemma sget_record c s a v :
  sget (a, v) (record s c) = if about a v c then record1 c (sget (a, v) s) else sget (a, v) s.
Proof.
  apply sget_fold_versions. clear. intros s v k. cbv zeta. rewrite sget_sset.
  destruct (key_eqbP k (g_actor c, v)) as [->|]; reflexivity.
Qed.

Lemma NoDup_record c s : NoDup (map fst s) -> NoDup (map fst (record s c)).
Proof. apply (fold_left_inv (fun s => NoDup (map fst s))). intros s0 v _. apply NoDup_sset. Qed.

Definition InvOn (L : list chg) (s : seen_t) : Prop :=
  NoDup (map fst s) /\
  forall a v ss, sget (a, v) s = Some ss ->
    canonical ss /\
    (exists c, In c L /\ about a v c = true) /\
    (forall q, mem q ss -> exists c, In c L /\ carries a v q c = true).

Lemma InvOn_mono L L' s : InvOn L s -> incl L L' -> InvOn L' s.
Proof.
  intros [Hnd Hi] Hsub. split; [exact Hnd|]. intros a v ss Hg.
  destruct (Hi a v ss Hg) as (H1 & (c & Hc & Ha) & H3). split; [exact H1|]. split; [exists c; auto|].
  intros q Hq. destruct (H3 q Hq) as (c' & Hc' & Hc2). exists c'. auto.
Qed.

Lemma forget_inv L s d : wf_chg d -> InvOn (d :: L) s -> InvOn L (forget s d).
Proof.
  intros Hwf [Hnd Hinv]. split; [apply NoDup_forget, Hnd|]. intros a v ss' Hget.
  rewrite sget_forget in Hget. destruct (about a v d) eqn:Ead.
  - (* an entry d is about: d's seqs are taken out, and something is left *)
    destruct (sget (a, v) s) as [ss|] eqn:Eg; [|discriminate]. unfold forget1 in Hget.
    destruct (g_seqs d) as [[x y]|] eqn:Es; [|discriminate].
    pose proof (wf_seqs d x y Hwf Es) as Hxy.
    pose proof (Hinv a v ss Eg) as ([lo Hcan] & _ & Hcar).
    assert (Hbacked : forall q, mem q (rem x y ss) -> exists c, In c L /\ carries a v q c = true).
    { intros q Hq. apply (rem_mem ss x y q lo Hxy Hcan) in Hq as [Hq Hnq].
      pose proof (Hcar q Hq) as (c & [<-|Hc] & Hc2); [|exists c; auto].
      apply carries_iff in Hc2 as (_ & x' & y' & E & Hr). rewrite Es in E. injection E as <- <-. lia. }
    pose proof (rem_canon ss x y lo Hxy Hcan) as Hcan2.
    destruct (rem x y ss) as [|[p q] t]; [discriminate|]. injection Hget as <-.
    split; [exists lo; exact Hcan2|]. split; [|exact Hbacked].
    destruct (Hbacked p) as (c & Hc & Hc2); [cbn in Hcan2 |- *; lia|].
    exists c. split; [exact Hc|]. apply carries_iff in Hc2. apply Hc2.
  - (* any other entry: none of its backing changes is d *)
    destruct (Hinv a v ss' Hget) as (Hcan & (c & [<-|Hc] & Hab) & Hcar); [congruence|].
    split; [exact Hcan|]. split; [exists c; auto|].
    intros q Hq. pose proof (Hcar q Hq) as (c' & [<-|Hc'] & Hc2); [|exists c'; auto].
    apply carries_iff in Hc2. destruct Hc2. congruence.
Qed.

Lemma record_inv L s c : wf_chg c -> InvOn L s -> In c L -> InvOn L (record s c).
Proof.
  intros Hwf [Hnd Hinv] HcL. split; [apply NoDup_record, Hnd|]. intros a v ss Hget.
  rewrite sget_record in Hget. destruct (about a v c) eqn:Eab; [|apply Hinv, Hget].
  unfold record1 in Hget. injection Hget as <-.
  set (cur := match sget (a, v) s with Some ss => ss | None => [] end).
  assert (Hcur : canonical cur /\ forall q, mem q cur -> exists c', In c' L /\ carries a v q c' = true).
  { unfold cur. destruct (sget (a, v) s) as [ss0|] eqn:E0.
    - destruct (Hinv _ _ _ E0) as (H1 & _ & H3). split; assumption.
    - split; [apply canonical_nil|intros q []]. }
  destruct Hcur as [Hcc Hcq]. destruct (g_seqs c) as [[x y]|] eqn:Es.
  - pose proof (wf_seqs c x y Hwf Es) as Hxy.
    split; [exact (ins_canonical cur x y Hxy Hcc)|]. split; [exists c; auto|].
    intros q Hq. apply (ins_mem cur x y q Hxy) in Hq as [Hq|Hq]; [|apply Hcq, Hq].
    exists c. split; [exact HcL|]. apply carries_iff. split; [exact Eab|]. exists x, y. auto.
  - split; [exact Hcc|]. split; [exists c; auto|exact Hcq].
Qed.

(* the oldest entries are dropped: no later entry has the key of one of them *)
Lemma skipn_inv L : forall n s, InvOn L s -> InvOn L (skipn n s).
Proof.
  induction n as [|n IH]; intros [|[k0 v0] s] H; try exact H. apply IH.
  destruct H as [Hnd Hi]. inversion Hnd as [|? ? Hn Hnd']; subst. split; [exact Hnd'|].
  intros a v ss Hg. apply Hi. cbn. destruct (key_eqbP (a, v) k0) as [<-|]; [|exact Hg].
  apply sget_In in Hg. contradiction.
Qed.

(* L counts as a set (Backed_same) *)
Definition Backed (L : list chg) (s : seen_t) : Prop := InvOn L s /\ forall c, In c L -> wf_chg c.

Lemma Backed_same L L' s : (forall x, In x L' <-> In x L) -> Backed L s -> Backed L' s.
Proof.
  intros Hl [Hinv Hwf]. split; [|intros x Hx; apply Hwf, Hl, Hx].
  eapply InvOn_mono; [exact Hinv|]. intros x. apply Hl.
Qed.

Lemma Backed_forget L s d : Backed (d :: L) s -> Backed L (forget s d).
Proof.
  intros [Hinv Hwf]. split; [|intros x Hx; apply Hwf; right; exact Hx].
  apply forget_inv; [apply Hwf; left; reflexivity|exact Hinv].
Qed.

Lemma Backed_forget_batch : forall b L s, Backed (b ++ L) s -> Backed L (fold_left forget b s).
Proof. induction b as [|d b IH]; intros L s H; [exact H|]. apply IH, Backed_forget, H. Qed.

(* c is queued behind q; R stands for the changes in flight and stored *)
Lemma Backed_queue q R s c : wf_chg c -> Backed (q ++ R) s -> Backed ((q ++ [c]) ++ R) (record s c).
Proof.
  intros Hc [Hinv Hwf]. rewrite <- app_assoc. split.
  - apply record_inv; [exact Hc| |apply in_elt].
    apply (InvOn_mono _ _ _ Hinv), incl_app_app; [apply incl_refl|apply incl_tl, incl_refl].
  - intros x Hx. apply in_app_or in Hx as [Hx|[<-|Hx]]; [|exact Hc|]; apply Hwf, in_or_app; auto.
Qed.

Definition SeenInv (st : ist) : Prop := InvOn (live st) (seen st).

Definition op_wf (op : iop) : Prop := match op with Offer c => wf_chg c | _ => True end.

Definition all_wf (st : ist) : Prop := forall c, In c (live st) -> wf_chg c.

Lemma In_remove_nth {A} (l : list A) : forall i x, In x (remove_nth i l) -> In x l.
Proof.
  induction l as [|y l IH]; intros i x H; [destruct i; exact H|].
  destruct i as [|i]; cbn in H; [right; exact H|]. destruct H as [->|H]; [left; reflexivity|right; eapply IH, H].
Qed.

(* a finished batch leaves the batches in flight *)
Lemma In_concat_remove_nth {A} (l : list (list A)) : forall i b, nth_error l i = Some b ->
  forall x, In x (concat l) <-> In x b \/ In x (concat (remove_nth i l)).
Proof.
  induction l as [|y l IH]; intros i b Hn x; [destruct i; discriminate|].
  destruct i as [|i]; cbn in *; rewrite !in_app_iff.
  - injection Hn as ->. reflexivity.
  - rewrite (IH i b Hn x). apply or_swap.
Qed.

Theorem istep_inv self maxq st op :
  Backed (live st) (seen st) -> op_wf op -> Backed (live (istep self maxq st op)) (seen (istep self maxq st op)).
Proof.
  intros H Hop. destruct op as [c|n|i ok|keep]; cbn [istep].
  - cbn in Hop. unfold offer.
    destruct (g_actor c =? self); [exact H|].
    destruct (seen_dup (seen st) c); [exact H|].
    destruct (known (bk st) c); [exact H|].
    unfold live in *.
    destruct (maxq <=? Z.of_nat (length (queue st))); [destruct (queue st) as [|d q']|];
      cbn [fst queue seen inflight stored].
    1,3: apply Backed_queue; assumption.
    (* the queue is full: the oldest change is shed *)
    apply Backed_queue; [exact Hop|]. apply Backed_forget, H.
  - destruct (firstn n (queue st)) as [|x b] eqn:Ef; [exact H|].
    apply (Backed_same (live st)); [|exact H]. intros y. unfold live. cbn [queue inflight stored].
    set (r := skipn n (queue st)). (* so that only the other [queue st] is split *)
    rewrite <- (firstn_skipn n (queue st)), Ef, concat_app. cbn [concat].
    (* the same disjuncts in another order; tauto takes five times as long over it *)
    rewrite app_nil_r, !in_app_iff. clear. split; intros H; decompose [or] H; auto.
  - destruct (nth_error (inflight st) i) as [b|] eqn:En; [|exact H].
    pose proof (In_concat_remove_nth _ _ _ En) as Hb. destruct ok.
    + apply (Backed_same (live st)); [|exact H]. intros y. unfold live. cbn [queue inflight stored].
      rewrite !in_app_iff, Hb. clear. split; intros H; decompose [or] H; auto.
    + (* a failed batch leaves the live changes and is forgotten *)
      apply Backed_forget_batch, (Backed_same (live st)); [|exact H]. intros y. unfold live. cbn [queue inflight stored].
      rewrite !in_app_iff, Hb. clear. split; intros H; decompose [or] H; auto.
  - destruct H as [Hinv Hwf]. split; [apply skipn_inv, Hinv|exact Hwf].
Qed.

Lemma Backed_init : Backed [] [].
Proof.
  split.
  - split; [constructor|]. intros a v ss H. discriminate.
  - intros c [].
Qed.

Theorem irun_inv self maxq ops :
  Forall op_wf ops -> SeenInv (irun self maxq ops) /\ all_wf (irun self maxq ops).
Proof.
  intros Hops. change (Backed (live (irun self maxq ops)) (seen (irun self maxq ops))).
  apply (fold_left_inv (fun st => Backed (live st) (seen st))); [|exact Backed_init].
  intros st op Hop H. apply istep_inv; [exact H|exact (proj1 (Forall_forall _ _) Hops op Hop)].
Qed.

(* a change suppressed as "already seen" is covered by changes that are queued,
   in flight or stored by a successful batch *)
Theorem suppressed_is_live st c :
  SeenInv st -> seen_dup (seen st) c = true ->
  match g_seqs c with
  | Some (s, e) => forall q, s <= q <= e ->
      exists c', In c' (live st) /\ carries (g_actor c) (g_lo c) q c' = true
  | None => forall v, g_lo c <= v <= g_hi c ->
      exists c', In c' (live st) /\ about (g_actor c) v c' = true
  end.
Proof.
  intros [Hnd Hinv] Hdup. unfold seen_dup in Hdup. destruct (g_seqs c) as [[s e]|].
  - destruct (sget (g_actor c, g_lo c) (seen st)) as [ss|] eqn:Eg; [|discriminate].
    destruct (Hinv _ _ _ Eg) as (Hcan & _ & Hcar).
    destruct (gaps s e ss) eqn:Egaps; [|discriminate].
    intros q Hq. apply Hcar. exact (proj1 (gaps_nil ss s e Hcan) Egaps q Hq).
  - rewrite forallb_forall in Hdup. intros v Hv.
    specialize (Hdup v (proj2 (In_versions c v) Hv)).
    destruct (sget (g_actor c, v) (seen st)) as [ss|] eqn:Eg; [|discriminate].
    destruct (Hinv _ _ _ Eg) as (_ & Hab & _). exact Hab.
Qed.

(* right after a change was shed it is not a duplicate any more *)
Theorem forgotten_not_dup s d :
  wf_chg d -> (forall k ss, sget k s = Some ss -> canonical ss) ->
  seen_dup (forget s d) d = false.
Proof.
  intros Hwf Hcan. assert (Hlo : g_lo d <= g_lo d <= g_hi d) by (destruct Hwf; lia).
  assert (Hget : sget (g_actor d, g_lo d) (forget s d) = forget1 d (sget (g_actor d, g_lo d) s)).
  { rewrite sget_forget, (proj2 (about_iff _ _ d)); auto. }
  unfold seen_dup, forget1 in *. destruct (g_seqs d) as [[x y]|] eqn:Es.
  - (* what is left of the entry does not contain x *)
    rewrite Hget. destruct (sget _ s) as [ss|] eqn:Eg; [|reflexivity].
    pose proof (wf_seqs d x y Hwf Es) as Hxy. pose proof (Hcan _ _ Eg) as [lo Hc].
    pose proof (gaps_nil (rem x y ss) x y (ex_intro _ lo (rem_canon ss x y lo Hxy Hc))) as Hgaps.
    (* taken apart only to learn that the remainder is not empty, and put back *)
    destruct (rem x y ss) as [|r t] eqn:Er; [reflexivity|]. rewrite <- Er in *.
    destruct (gaps x y (rem x y ss)); [exfalso|reflexivity].
    apply (rem_mem ss x y x lo) in Hc; [|exact Hxy]. apply Hc; [|lia]. apply Hgaps; [reflexivity|lia].
  - (* the entry of the first version is gone *)
    apply not_true_is_false. rewrite forallb_forall. intros Hall.
    specialize (Hall _ (proj2 (In_versions d _) Hlo)). rewrite Hget in Hall. destruct (sget _ s); discriminate.
Qed.

Theorem done_ok_stores self maxq st i b :
  nth_error (inflight st) i = Some b ->
  forall c, In c b -> In c (stored (istep self maxq st (Done i true))).
Proof.
  intros Hn c Hc. cbn [istep]. rewrite Hn. cbn [stored]. apply in_app_iff. right. exact Hc.
Qed.

Theorem accepted_is_queued self maxq st c d :
  snd (offer self maxq st c) = Accepted d -> In c (queue (fst (offer self maxq st c))).
Proof.
  unfold offer. destruct (g_actor c =? self); [discriminate|].
  destruct (seen_dup (seen st) c); [discriminate|]. destruct (known (bk st) c); [discriminate|].
  destruct (if maxq <=? _ then _ else _) as [[q1 s1] d0]. intros _. apply in_elt.
Qed.
