From Coq Require Import List ZArith Bool.
From Corro Require Import Lib.ListFacts Model.SchemaDiff.
Import ListNotations.
Open Scope Z_scope.

Lemma zlist_eqb_eq : forall a b, zlist_eqb a b = true <-> a = b.
Proof. apply (list_eqb_spec Z.eqb); [exact Z.eqb_eq|intros [|x a] [|y b]; reflexivity]. Qed.

Lemma col_eqb_refl c : col_eqb c c = true.
Proof. unfold col_eqb. rewrite !Z.eqb_refl, !Bool.eqb_reflx. reflexivity. Qed.

Lemma nodupb_sound l : nodupb l = true -> NoDup l.
Proof. apply nodupb_NoDup. intros [|x t]; reflexivity. Qed.

(* find_tab and find_col are this `find`, with the name as key *)
Lemma find_by_key {A} (key : A -> Z) l x :
  NoDup (map key l) -> In x l -> find (fun y => key y =? key x) l = Some x.
Proof.
  induction l as [|y l IH]; cbn; intros Hn Hi; [contradiction|].
  apply NoDup_cons_iff in Hn as [Hnot Hn']. destruct Hi as [->|Hi]; [rewrite Z.eqb_refl; reflexivity|].
  destruct (Z.eqb_spec (key y) (key x)) as [E|_]; [|apply IH; assumption].
  exfalso. apply Hnot. rewrite E. apply in_map. exact Hi.
Qed.

Lemma exec_accepted st sub : fst (exec st sub) = true ->
  exists tabs, parse sub = Some tabs /\
    constrain (merge (s_mem st) tabs) = true /\
    apply_ok (has_rows (s_db st)) (s_mem st) (merge (s_mem st) tabs) = true /\
    snd (exec st sub) = mkS (merge (s_mem st) tabs) (db_apply (s_db st) (merge (s_mem st) tabs)).
Proof.
  unfold exec. destruct (parse sub) as [tabs|]; [|discriminate].
  destruct (constrain _ && apply_ok _ _ _) eqn:E; [|discriminate].
  apply andb_true_iff in E. exists tabs. tauto.
Qed.

Theorem exec_atomic st sub : fst (exec st sub) = false -> snd (exec st sub) = st.
Proof.
  unfold exec. destruct (parse sub) as [tabs|]; [|reflexivity].
  destruct (constrain _ && apply_ok _ _ _); [discriminate|reflexivity].
Qed.

Definition names (l : list tab) : list Z := map t_name l.

Lemma find_tab_some n l t : find_tab n l = Some t -> In t l /\ t_name t = n.
Proof. unfold find_tab. intros H. apply find_some in H as [H1 H2]. apply Z.eqb_eq in H2. auto. Qed.

Lemma find_tab_unique l o : NoDup (names l) -> In o l -> find_tab (t_name o) l = Some o.
Proof. apply (find_by_key t_name). Qed.

Lemma put_tab_names n t l : In n (names (put_tab t l)) <-> In n (names l) \/ t_name t = n.
Proof.
  induction l as [|x l IH]; cbn; [split; intros [H|H]; auto|].
  destruct (Z.eqb_spec (t_name x) (t_name t)) as [E|_]; cbn.
  - rewrite E. split; [auto|intros [H|H]; auto].
  - rewrite or_assoc, <- IH. reflexivity.
Qed.

Lemma put_tab_nodup t l : NoDup (names l) -> NoDup (names (put_tab t l)).
Proof.
  induction l as [|x l IH]; cbn; intros Hn; [repeat constructor; intros []|].
  inversion Hn as [|? ? Hx Hl]; subst. destruct (Z.eqb_spec (t_name x) (t_name t)) as [E|E]; cbn.
  - rewrite <- E. exact Hn.
  - constructor; [|exact (IH Hl)]. intros H. apply put_tab_names in H as [H|H]; [contradiction|congruence].
Qed.

Lemma find_put_tab n t l : find_tab n (put_tab t l) = if t_name t =? n then Some t else find_tab n l.
Proof.
  unfold find_tab. induction l as [|x l IH]; cbn; [reflexivity|].
  destruct (Z.eqb_spec (t_name x) (t_name t)) as [E|E]; cbn.
  - rewrite E. destruct (t_name t =? n); reflexivity.
  - rewrite IH. destruct (Z.eqb_spec (t_name x) n) as [<-|_]; [|reflexivity].
    destruct (Z.eqb_spec (t_name t) (t_name x)); [congruence|reflexivity].
Qed.

Lemma put_tab_same t l : find_tab (t_name t) l = Some t -> put_tab t l = l.
Proof.
  unfold find_tab. induction l as [|x l IH]; cbn; [discriminate|].
  destruct (t_name x =? t_name t); [intros H; injection H as ->; reflexivity|].
  intros H. f_equal. apply IH. exact H.
Qed.

Lemma merge_keeps (P : list tab -> Prop) sub :
  (forall t l, In t sub -> P l -> P (put_tab t l)) -> forall old, P old -> P (merge old sub).
Proof.
  intros Hstep. apply fold_left_inv. intros l t. apply Hstep.
Qed.

Lemma merge_nodup sub old : NoDup (names old) -> NoDup (names (merge old sub)).
Proof. apply (merge_keeps (fun l => NoDup (names l))). intros t l _. apply put_tab_nodup. Qed.

Lemma merge_names sub old n : In n (names old) -> In n (names (merge old sub)).
Proof. apply (merge_keeps (fun l => In n (names l))). intros t l _ H. apply put_tab_names. left. exact H. Qed.

(* the last table of a name wins, hence the distinct names *)
Lemma merge_finds sub : NoDup (names sub) -> forall old t, In t sub -> find_tab (t_name t) (merge old sub) = Some t.
Proof.
  induction sub as [|x sub IH]; intros Hn old t Hi; [contradiction|].
  apply NoDup_cons_iff in Hn as [Hnot Hn']. destruct Hi as [->|Hi]; [|apply IH; assumption].
  change (merge old (t :: sub)) with (merge (put_tab t old) sub).
  apply (merge_keeps (fun l => find_tab (t_name t) l = Some t)).
  - intros t' l Ht' Hl. rewrite find_put_tab. destruct (Z.eqb_spec (t_name t') (t_name t)) as [E|_]; [|exact Hl].
    exfalso. apply Hnot. rewrite <- E. apply in_map. exact Ht'.
  - rewrite find_put_tab, Z.eqb_refl. reflexivity.
Qed.

Lemma merge_same M l : (forall t, In t l -> find_tab (t_name t) M = Some t) -> merge M l = M.
Proof.
  unfold merge. induction l as [|t l IH]; intros Hl; cbn; [reflexivity|].
  rewrite put_tab_same by (apply Hl; left; reflexivity). apply IH. intros t' Ht'. apply Hl. right. exact Ht'.
Qed.

Lemma merge_idem sub old : NoDup (names sub) -> merge (merge old sub) sub = merge old sub.
Proof. intros Hn. apply merge_same. intros t Ht. apply merge_finds; assumption. Qed.

Definition tab_extends (o t : tab) : Prop :=
  t_name t = t_name o /\ t_pk t = t_pk o /\
  forall c, In c (t_cols o) -> exists c', In c' (t_cols t) /\ col_eqb c c' = true.

Lemma alter_ok_extends ne o t : t_name t = t_name o -> alter_ok ne o t = true -> tab_extends o t.
Proof.
  (* of alter_ok's five conjuncts the second (primary key) and the third (the old columns) are used *)
  unfold alter_ok. intros Hname [[[[_ Hpk]%andb_prop Hcols]%andb_prop _]%andb_prop _]%andb_prop.
  rewrite forallb_forall in Hcols.
  split; [exact Hname|]. split; [symmetry; apply zlist_eqb_eq, Hpk|].
  intros c Hc. specialize (Hcols c Hc).
  destruct (find_col (c_name c) (t_cols t)) as [c'|] eqn:E; [|discriminate].
  exists c'. split; [exact (proj1 (find_some _ _ E))|exact Hcols].
Qed.

Theorem exec_ok_mem_additive st sub : NoDup (names (s_mem st)) -> fst (exec st sub) = true ->
  NoDup (names (s_mem (snd (exec st sub)))) /\
  forall o, In o (s_mem st) -> exists t, In t (s_mem (snd (exec st sub))) /\ tab_extends o t.
Proof.
  intros Hn Hacc. destruct (exec_accepted st sub Hacc) as (tabs & _ & _ & Hap & ->).
  split; [apply merge_nodup; exact Hn|].
  intros o Ho.
  pose proof (merge_names tabs _ _ (in_map t_name _ _ Ho)) as Hin.
  apply in_map_iff in Hin as [t [Hname Ht]].
  exists t. split; [exact Ht|].
  unfold apply_ok in Hap. rewrite forallb_forall in Hap. specialize (Hap t Ht).
  rewrite Hname, (find_tab_unique _ _ Hn Ho) in Hap.
  exact (alter_ok_extends _ _ _ Hname Hap).
Qed.

Definition dtab_extends (d d' : dtab) : Prop :=
  t_name (d_tab d') = t_name (d_tab d) /\ t_pk (d_tab d') = t_pk (d_tab d) /\
  (exists extra, t_cols (d_tab d') = t_cols (d_tab d) ++ extra) /\
  (exists fill, d_rows d' = map (fun r => r ++ fill) (d_rows d)).

Theorem exec_ok_db_additive st sub : fst (exec st sub) = true ->
  forall d, In d (s_db st) -> exists d', In d' (s_db (snd (exec st sub))) /\ dtab_extends d d'.
Proof.
  intros Hacc d Hd. destruct (exec_accepted st sub Hacc) as (tabs & _ & _ & _ & ->).
  (* db_apply maps d to its altered version (extra = added_cols, fill = their defaults), or to itself *)
  eexists. split; [apply in_app_iff; left; exact (in_map _ _ d Hd)|]. cbn beta.
  destruct (find_tab _ _) as [t|] eqn:E.
  - apply find_tab_some in E as [_ En]. unfold alter_dtab, dtab_extends. cbn. repeat split; eauto.
  - repeat split; exists []; [symmetry; apply app_nil_r|].
    rewrite (map_ext _ id), map_id; [reflexivity|intros r; apply app_nil_r].
Qed.

Lemma alter_self ne t : shape_ok t = true -> idx_cols_ok t = true -> alter_ok ne t t = true.
Proof.
  intros Hs Hi. unfold alter_ok. rewrite Hs, Hi, (proj2 (zlist_eqb_eq _ _) eq_refl).
  assert (Hfind : forall c, In c (t_cols t) -> find_col (c_name c) (t_cols t) = Some c).
  { intros c. apply (find_by_key c_name), nodupb_sound. unfold shape_ok in Hs. rewrite !andb_true_iff in Hs. apply Hs. }
  (* every column is found again unchanged, so no column counts as added *)
  assert (Hadd : added_cols t t = []).
  { apply filter_nil. intros c Hc. rewrite (Hfind c Hc). reflexivity. }
  rewrite Hadd, andb_true_r, andb_true_r. apply forallb_forall. intros c Hc. rewrite (Hfind c Hc). apply col_eqb_refl.
Qed.

Lemma ok_tables_shape hr old new t : apply_ok hr old new = true -> In t new -> shape_ok t = true /\ idx_cols_ok t = true.
Proof.
  unfold apply_ok. rewrite forallb_forall. intros H Ht. specialize (H t Ht).
  (* create_ok and alter_ok both begin with shape_ok and end with idx_cols_ok *)
  unfold alter_ok, create_ok in H.
  destruct (shape_ok t); [|destruct (find_tab _ old); discriminate].
  destruct (idx_cols_ok t); [auto|]. destruct (find_tab _ old); rewrite andb_false_r in H; discriminate.
Qed.

Theorem resubmit_accepted st sub tabs : NoDup (names (s_mem st)) -> parse sub = Some tabs -> NoDup (names tabs) ->
  fst (exec st sub) = true ->
  fst (exec (snd (exec st sub)) sub) = true /\
  s_mem (snd (exec (snd (exec st sub)) sub)) = s_mem (snd (exec st sub)).
Proof.
  intros Hn Hp Hnt Hacc. destruct (exec_accepted st sub Hacc) as (tabs' & Hp' & Hc & Hap & ->).
  rewrite Hp in Hp'. injection Hp' as <-.
  unfold exec. rewrite Hp. cbn [s_mem s_db]. rewrite merge_idem, Hc by exact Hnt.
  set (M := merge (s_mem st) tabs) in *.
  (* every table of M passes as an unchanged alteration of itself *)
  assert (Hself : forall hr, apply_ok hr M M = true).
  { intros hr. apply forallb_forall. intros t Ht. rewrite (find_tab_unique M t (merge_nodup tabs _ Hn) Ht).
    destruct (ok_tables_shape _ _ _ t Hap Ht). apply alter_self; assumption. }
  rewrite Hself. split; reflexivity.
Qed.
