From Coq Require Import List Bool.
From Corro Require Import Model.SubLife.
Import ListNotations.

(* Model.SubLife.restored_at_start s unfolds to is_completed (s_meta s) *)
Definition is_completed (m : meta) : bool := match m with MCompleted => true | _ => false end.

(* invariant of every reachable state, for either behaviour of a plain cancellation *)
Definition linv_b (s : sub) : bool :=
  (* 'completed' is only ever written over a matview that is complete, by a matcher that then stops *)
  (negb (is_completed (s_meta s)) ||
     (s_synced s && negb (s_pending s) && negb (s_loop s) && negb (s_fed s) && negb (s_draining s))) &&
  (* a running or draining matcher has missed nothing *)
  (negb (s_loop s) || s_synced s) &&
  (negb (s_draining s) || (s_synced s && negb (s_loop s))).

(* The environment's side: a transaction only commits while the subscription is fed, or when
   the matcher can no longer complete (no commit between the removal of a handle and its
   cancellation, none after drop_handles during shutdown, none between a restart and the
   restoration of the subscriptions). *)
Definition env_ok_b (s : sub) (o : lop) : bool :=
  match o with
  | LWrite => s_fed s || negb (s_loop s || s_draining s || is_completed (s_meta s))
  | _ => true
  end.

Definition allb (f : bool -> bool) : bool := f true && f false.
Lemma allb_spec f : allb f = true -> forall b, f b = true.
Proof. unfold allb. rewrite andb_true_iff. intros H []; apply H. Qed.

Lemma lstep_inv : forall cr s o, linv_b s = true -> env_ok_b s o = true -> linv_b (lstep cr s o) = true.
Proof.
  intros cr s o Hi He.
  enough (H : implb (linv_b s && env_ok_b s o) (linv_b (lstep cr s o)) = true)
    by (rewrite Hi, He in H; exact H).
  clear Hi He. destruct s as [m sy pe fe lo dr].
  (* finite: for each of the 5 x 10 pairs of meta state and operation, one evaluation over the
     64 values of the six booleans (a case split down to all 3200 cases builds a 300 KB proof) *)
  revert dr; apply allb_spec. revert lo; apply allb_spec. revert fe; apply allb_spec.
  revert pe; apply allb_spec. revert sy; apply allb_spec. revert cr; apply allb_spec.
  destruct m, o as [| | | |[]| | | |]; vm_compute; reflexivity.
Qed.

Fixpoint env_run (cr : bool) (s : sub) (ops : list lop) : bool :=
  match ops with
  | [] => true
  | o :: t => env_ok_b s o && env_run cr (lstep cr s o) t
  end.

Theorem lrun_inv : forall cr ops s, linv_b s = true -> env_run cr s ops = true -> linv_b (lrun cr ops s) = true.
Proof.
  intros cr. induction ops as [|o t IH]; intros s Hi He; cbn in *; [exact Hi|].
  apply andb_true_iff in He as [H1 H2]. apply IH; [apply lstep_inv; assumption|exact H2].
Qed.

Lemma restored_is_quiet s : linv_b s = true -> restored_at_start s = true ->
  s_synced s = true /\ s_pending s = false /\ s_loop s = false /\ s_draining s = false.
Proof.
  unfold linv_b, restored_at_start. destruct (s_meta s); try discriminate.
  (* one field at a time: five cases, not thirty-two *)
  destruct (s_synced s); [|discriminate]. destruct (s_pending s); [discriminate|].
  destruct (s_loop s); [discriminate|]. destruct (s_fed s); [discriminate|].
  destruct (s_draining s); [discriminate|]. auto.
Qed.

Theorem restore_sound : forall cr ops, env_run cr s_init ops = true -> restore_is_sound (lrun cr ops s_init) = true.
Proof.
  intros cr ops He. pose proof (lrun_inv cr ops s_init eq_refl He) as H. unfold restore_is_sound.
  destruct (restored_at_start _) eqn:E; [|reflexivity].
  destruct (restored_is_quiet _ H E) as (-> & -> & _). reflexivity.
Qed.

Theorem kill_not_restored : forall cr ops, env_run cr s_init ops = true ->
  let s := lrun cr ops s_init in (s_loop s = true \/ s_draining s = true) -> restored_at_start s = false.
Proof.
  intros cr ops He s Hs. pose proof (lrun_inv cr ops s_init eq_refl He) as H.
  destruct (restored_at_start s) eqn:E; [|reflexivity].
  destruct (restored_is_quiet s H E) as (_ & _ & Hl & Hd). destruct Hs; congruence.
Qed.
