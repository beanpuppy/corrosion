(* C11: handle_candidates and the queries it re-evaluates (Model/Ivm.v). *)
From Coq Require Import List ZArith Bool Lia FinFun.
From Corro Require Import Lib.ListFacts Model.Ivm.
Import ListNotations.
Open Scope Z_scope.

(* the pieces f a of a flat_map are disjoint when every element of f a carries
   (under h, then tag) the key g a of the a it came from *)
Lemma NoDup_map_flat_map {A B D T} (h : B -> D) (f : A -> list B) (g : A -> T) (tag : D -> option T) l :
  (forall a b, In b (f a) -> tag (h b) = Some (g a)) -> (forall a, NoDup (map h (f a))) ->
  NoDup (map g l) -> NoDup (map h (flat_map f l)).
Proof.
  intros Ht Hf. induction l as [|a l IH]; cbn; intros Hn; [constructor|].
  apply NoDup_cons_iff in Hn as [Ha Hn]. rewrite map_app. apply NoDup_app_disj; [apply Hf|exact (IH Hn)|].
  intros x Hx Hx'. apply in_map_iff in Hx as [b [<- Hb]]. apply in_map_iff in Hx' as [b' [E Hb']].
  apply in_flat_map in Hb' as [a' [Ha' Hb']]. apply Ht in Hb, Hb'. rewrite <- E, Hb' in Hb.
  injection Hb as Hb. apply Ha. rewrite <- Hb. apply in_map. exact Ha'.
Qed.

Lemma in_flat_map_filter {A B} (p : A -> bool) (f : A -> list B) (P : A -> Prop) l x :
  (forall a, In x (f a) <-> P a) -> (In x (flat_map f (filter p l)) <-> exists a, In a l /\ p a = true /\ P a).
Proof.
  intros H. rewrite in_flat_map. split.
  - intros [a [Hi Hx]]. apply filter_In in Hi as [Hi Hp]. apply H in Hx. exists a. auto.
  - intros [a [Hi [Hp Ha]]]. exists a. split; [apply filter_In; auto|apply H; exact Ha].
Qed.

(* the shape of a LEFT JOIN's inner loop: the fallback `a` when nothing matches *)
Lemma in_match_nil {A B} (l : list A) (a : list B) (f : A -> list B) x :
  In x (match l with [] => a | _ => flat_map f l end) <-> l = [] /\ In x a \/ In x (flat_map f l).
Proof. destruct l; cbn; [tauto|intuition discriminate]. Qed.

Lemma key_eqb_eq : forall a b, key_eqb a b = true <-> a = b.
Proof. apply (list_eqb_spec Z.eqb); [exact Z.eqb_eq|intros [|x a] [|y b]; reflexivity]. Qed.

Lemma val_eqb_eq a b : val_eqb a b = true <-> a = b.
Proof. destruct a as [x|], b as [y|]; cbn; rewrite ?Z.eqb_eq; split; congruence. Qed.

Lemma cells_eqb_eq : forall a b, cells_eqb a b = true <-> a = b.
Proof. apply (list_eqb_spec val_eqb); [exact val_eqb_eq|intros [|x a] [|y b]; reflexivity]. Qed.

Lemma okey_eqb_eq a b : okey_eqb a b = true <-> a = b.
Proof. destruct a as [x|], b as [y|]; cbn; rewrite ?key_eqb_eq; split; congruence. Qed.

Lemma mkey_eqb_eq : forall a b, mkey_eqb a b = true <-> a = b.
Proof. apply (list_eqb_spec okey_eqb); [exact okey_eqb_eq|intros [|x a] [|y b]; reflexivity]. Qed.

Lemma kin_spec ks k : kin ks k = true <-> In k ks.
Proof. exact (existsb_eqb key_eqb key_eqb_eq k ks). Qed.

Definition rows_of {K C} (st : pstate K C) : list (ment K C) := fst (fst st).

Section PassProofs.
  Variables (K C : Type) (keqb : K -> K -> bool) (ceqb : C -> C -> bool).
  Hypothesis keqb_spec : forall a b, keqb a b = true <-> a = b.
  Hypothesis ceqb_spec : forall a b, ceqb a b = true <-> a = b.

  Notation ment := (ment K C).
  Notation mfind := (mfind K C keqb).
  Notation mset := (mset K C keqb).
  Notation upsert1 := (upsert1 K C keqb ceqb).
  Notation pass := (pass K C keqb ceqb).
  Notation doomed := (doomed K C keqb ceqb).
  Notation row_mem := (row_mem K C keqb ceqb).

  Definition keys (l : list ment) : list K := map (fun e => fst (snd e)) l.
  Definition look (k : K) (l : list ment) : option C :=
    match mfind k l with Some (_, c) => Some c | None => None end.

  Lemma keqbP a b : reflect (a = b) (keqb a b).
  Proof. apply iff_reflect. symmetry. apply keqb_spec. Qed.

  Lemma look_cons k rid k0 c0 t : look k ((rid, (k0, c0)) :: t) = if keqb k0 k then Some c0 else look k t.
  Proof. unfold look. cbn. destruct (keqb k0 k); reflexivity. Qed.

  Lemma look_none k l : look k l = None <-> ~ In k (keys l).
  Proof.
    induction l as [|[rid [k0 c0]] t IH]; [cbn; tauto|].
    rewrite look_cons. cbn. destruct (keqbP k0 k) as [->|Hne].
    - split; [discriminate|intros []; left; reflexivity].
    - rewrite IH. clear - Hne. tauto.
  Qed.

  (* under NoDup keys the matview is its list of (key, cells) read as a set *)
  Lemma look_some k c l : NoDup (keys l) -> (look k l = Some c <-> In (k, c) (map snd l)).
  Proof.
    induction l as [|[rid [k0 c0]] t IH]; cbn; intros Hn; [split; [discriminate|intros []]|].
    apply NoDup_cons_iff in Hn as [Hk0 Hn]. rewrite look_cons.
    destruct (keqbP k0 k) as [->|Hne].
    - split; [intros [= ->]; left; reflexivity|]. intros [[= ->]|Hi]; [reflexivity|].
      destruct Hk0. apply (in_map fst) in Hi. rewrite map_map in Hi. exact Hi.
    - rewrite (IH Hn). split; [auto|]. intros [[= E _]|Hi]; [contradiction|exact Hi].
  Qed.

  (* mset touches the cells only *)
  Lemma mset_proj {X} (f : ment -> X) k c l :
    (forall rid k' c1 c2, f (rid, (k', c1)) = f (rid, (k', c2))) -> map f (mset k c l) = map f l.
  Proof.
    intros Hf. induction l as [|[rid [k' c']] t IH]; cbn; [reflexivity|].
    destruct (keqb k' k); cbn; [rewrite (Hf rid k' c c')|rewrite IH]; reflexivity.
  Qed.

  Lemma look_mset k c k' l :
    look k' (mset k c l) = if keqb k k' then option_map (fun _ => c) (look k' l) else look k' l.
  Proof.
    induction l as [|[rid [k0 c0]] t IH]; cbn [Ivm.mset].
    - cbn. destruct (keqb k k'); reflexivity.
    - destruct (keqbP k0 k) as [->|Hne]; rewrite !look_cons.
      + destruct (keqb k k'); reflexivity.
      + rewrite IH. destruct (keqbP k0 k') as [->|_]; [|reflexivity].
        destruct (keqbP k k') as [->|_]; [contradiction|reflexivity].
  Qed.

  Lemma look_app k l1 l2 : look k (l1 ++ l2) = match look k l1 with Some c => Some c | None => look k l2 end.
  Proof.
    induction l1 as [|[rid [k0 c0]] t IH]; [reflexivity|].
    cbn [app]. rewrite !look_cons. destruct (keqb k0 k); [reflexivity|exact IH].
  Qed.

  Lemma upsert1_rows st k c :
    rows_of (upsert1 st (k, c)) =
    match look k (rows_of st) with
    | Some c0 => if ceqb c0 c then rows_of st else mset k c (rows_of st)
    | None => rows_of st ++ [(snd (fst st), (k, c))]
    end.
  Proof.
    destruct st as [[rows nxt] evs]. unfold look, Ivm.upsert1, rows_of. cbn [fst snd].
    destruct (mfind k rows) as [[rid c0]|]; [destruct (ceqb c0 c)|]; reflexivity.
  Qed.

  Lemma upsert1_look st k c k' :
    look k' (rows_of (upsert1 st (k, c))) = if keqb k k' then Some c else look k' (rows_of st).
  Proof.
    rewrite upsert1_rows. destruct (look k (rows_of st)) as [c0|] eqn:Hl.
    - destruct (ceqb c0 c) eqn:Ec.
      + apply ceqb_spec in Ec as ->. destruct (keqbP k k') as [<-|_]; [exact Hl|reflexivity].
      + rewrite look_mset. destruct (keqbP k k') as [<-|_]; [rewrite Hl|]; reflexivity.
    - rewrite look_app, look_cons. destruct (keqbP k k') as [<-|_].
      + rewrite Hl. reflexivity.
      + destruct (look k' (rows_of st)); reflexivity.
  Qed.

  Lemma upsert1_keys st kc : NoDup (keys (rows_of st)) -> NoDup (keys (rows_of (upsert1 st kc))).
  Proof.
    intros Hn. destruct kc as [k c]. rewrite upsert1_rows.
    destruct (look k (rows_of st)) as [c0|] eqn:Hl.
    - destruct (ceqb c0 c); [|unfold keys; rewrite mset_proj by reflexivity]; exact Hn.
    - unfold keys. rewrite map_app. apply NoDup_snoc; [exact Hn|]. apply look_none, Hl.
  Qed.

  Definition functional (l : list (K * C)) := forall k c c', In (k, c) l -> In (k, c') l -> c = c'.

  (* the last upsert of a key wins, so the induction goes from the right *)
  Lemma upserts_look newr st k' : functional newr ->
    (forall c, In (k', c) newr -> look k' (rows_of (fold_left upsert1 newr st)) = Some c) /\
    (~ In k' (map fst newr) -> look k' (rows_of (fold_left upsert1 newr st)) = look k' (rows_of st)).
  Proof.
    induction newr as [|[k c] t IH] using rev_ind; intros Hf.
    - split; [intros c []|reflexivity].
    - rewrite fold_left_app. cbn [fold_left]. rewrite upsert1_look.
      destruct IH as [Ha Hb].
      { intros k0 c0 c0' H1 H2. apply (Hf k0); apply in_or_app; left; assumption. }
      split.
      + intros c' Hi. destruct (keqbP k k') as [<-|Hne].
        * apply f_equal, (Hf k); [apply in_or_app; right; left; reflexivity|exact Hi].
        * apply in_snoc in Hi as [Hi|[= -> _]]; [apply Ha; exact Hi|contradiction].
      + rewrite map_app, in_app_iff. cbn. intros Hnin.
        destruct (keqbP k k') as [<-|_]; [destruct Hnin; auto|]. apply Hb. auto.
  Qed.

  Lemma row_mem_spec k c l : row_mem (k, c) l = true <-> In (k, c) l.
  Proof.
    unfold Ivm.row_mem. rewrite existsb_exists. cbn. split.
    - intros [[k0 c0] [Hi He]]. cbn in He. apply andb_true_iff in He as [H1 H2].
      apply keqb_spec in H1. apply ceqb_spec in H2. subst. exact Hi.
    - intros H. exists (k, c). split; [exact H|]. cbn. apply andb_true_iff. split; [apply keqb_spec|apply ceqb_spec]; reflexivity.
  Qed.

  Lemma look_filter (f : K * C -> bool) l k c : NoDup (keys l) ->
    (look k (filter (fun e => f (snd e)) l) = Some c <-> look k l = Some c /\ f (k, c) = true).
  Proof.
    intros Hn. rewrite !look_some by (try apply NoDup_map_filter; exact Hn).
    rewrite <- filter_map_comm. apply filter_In.
  Qed.

  Theorem pass_spec st sel newr :
    NoDup (keys (rows_of st)) -> functional newr -> (forall k c, In (k, c) newr -> sel k = true) ->
    NoDup (keys (rows_of (pass st sel newr))) /\
    forall k c, look k (rows_of (pass st sel newr)) = Some c <->
                if sel k then In (k, c) newr else look k (rows_of st) = Some c.
  Proof.
    intros Hn Hf Hsel. unfold Ivm.pass.
    pose proof (fold_left_inv _ upsert1 newr (fun a b _ => upsert1_keys a b) st Hn) as Hn1.
    pose proof (fun k => upserts_look newr st k Hf) as Hl1.
    destruct (fold_left upsert1 newr st) as [[rows nxt] evs]. unfold rows_of in *. cbn [fst] in *.
    split; [apply NoDup_map_filter; exact Hn1|].
    intros k c. pose proof (Hl1 k) as [Ha Hb].
    rewrite (look_filter (fun kc => negb (sel (fst kc) && negb (row_mem kc newr)))) by exact Hn1.
    cbn [fst]. destruct (sel k) eqn:Hs; cbn [andb negb].
    - rewrite negb_involutive, row_mem_spec. split; [apply proj2|]. intros Hi. split; [exact (Ha c Hi)|exact Hi].
    - rewrite <- Hb; [split; [apply proj1|auto]|].
      intros H. apply in_map_iff in H as [[k0 c0] [E Hi]]. cbn in E. subst k0.
      rewrite (Hsel _ _ Hi) in Hs. discriminate.
  Qed.

  Lemma pass_noop st sel newr :
    NoDup (keys (rows_of st)) ->
    (forall k c, In (k, c) newr <-> look k (rows_of st) = Some c /\ sel k = true) ->
    pass st sel newr = st.
  Proof.
    intros Hn Hnew. unfold Ivm.pass.
    assert (Hfold : fold_left upsert1 newr st = st).
    { apply (fold_left_inv (fun s => s = st)); [|reflexivity]. intros s [k c] Hi ->.
      apply Hnew in Hi as [Hin _]. destruct st as [[rows nxt] evs]. unfold look, Ivm.upsert1, rows_of in *. cbn [fst] in Hin.
      destruct (mfind k rows) as [[rid c0]|]; [|discriminate].
      injection Hin as ->. rewrite (proj2 (ceqb_spec c c) eq_refl). reflexivity. }
    rewrite Hfold. destruct st as [[rows nxt] evs]. unfold rows_of in *. cbn [fst] in *.
    assert (Hd : forall e, In e rows -> doomed sel newr e = false).
    { intros [rid [k c]] He. unfold Ivm.doomed. cbn [fst snd].
      destruct (sel k) eqn:Es; [|reflexivity].
      rewrite (proj2 (row_mem_spec k c newr)); [reflexivity|].
      apply Hnew. split; [|exact Es]. apply look_some; [exact Hn|]. exact (in_map snd _ _ He). }
    rewrite filter_all by (intros e He; rewrite (Hd e He); reflexivity).
    rewrite (proj2 (filter_nil _ _) Hd). cbn. rewrite app_nil_r. reflexivity.
  Qed.
End PassProofs.

Notation mlook := (look mkey (list val) mkey_eqb).
Notation mkeys := (keys mkey (list val)).
Notation mpass := (pass mkey (list val) mkey_eqb cells_eqb).

Definition agree (rows : list (ment mkey (list val))) (R : list mrow) : Prop :=
  NoDup (mkeys rows) /\ forall mk c, mlook mk rows = Some c <-> In (mk, c) R.

Definition hc_fold (q : query) (d : db) (cs : cands) (st : pstate mkey (list val)) :=
  fold_left (fun st c => mpass st (sel_pos (fst c) (snd c)) (eval_restricted q d (fst c) (snd c))) cs st.

Lemma hc_unfold q d m cs :
  handle_candidates q d m cs =
  let st := hc_fold q d cs (m_rows m, m_next m, []) in
  (mkM (rows_of st) (snd (fst st)) (m_cid m + Z.of_nat (length (snd st))), snd st).
Proof.
  unfold handle_candidates. fold (hc_fold q d cs (m_rows m, m_next m, [])).
  destruct (hc_fold q d cs (m_rows m, m_next m, [])) as [[rows nxt] evs]. reflexivity.
Qed.

Definition selected (cs : cands) (mk : mkey) : bool := existsb (fun c => sel_pos (fst c) (snd c) mk) cs.

(* each pass makes the matview agree with New on the keys it selects and leaves the others alone *)
Lemma hc_fold_inv q d Old New rows nxt evs :
  functional mkey (list val) New -> agree rows Old ->
  forall cs,
  (forall pos ks, In (pos, ks) cs -> forall mk c,
     In (mk, c) (eval_restricted q d pos ks) <-> In (mk, c) New /\ sel_pos pos ks mk = true) ->
  NoDup (mkeys (rows_of (hc_fold q d cs (rows, nxt, evs)))) /\
  forall mk c, mlook mk (rows_of (hc_fold q d cs (rows, nxt, evs))) = Some c <->
               In (mk, c) (if selected cs mk then New else Old).
Proof.
  intros HfN Hag. induction cs as [|[pos ks] cs IH] using rev_ind; intros Hr; [exact Hag|].
  destruct IH as [Hn Hl]. { intros p k Hi. apply Hr. apply in_or_app. left. exact Hi. }
  specialize (Hr pos ks (in_elt _ _ _)).
  unfold hc_fold in *. rewrite fold_left_app. cbn [fold_left fst snd].
  destruct (pass_spec _ _ _ _ mkey_eqb_eq cells_eqb_eq _ (sel_pos pos ks) (eval_restricted q d pos ks) Hn)
    as [Hn1 Hl1].
  - intros mk c c' H1 H2. apply Hr in H1, H2. exact (HfN mk c c' (proj1 H1) (proj1 H2)).
  - intros mk c H. apply Hr in H. exact (proj2 H).
  - split; [exact Hn1|]. intros mk c. rewrite Hl1.
    unfold selected. rewrite existsb_app. cbn [existsb fst snd]. fold (selected cs mk).
    destruct (sel_pos pos ks mk) eqn:Es.
    + rewrite Hr, orb_true_r. split; [apply proj1|auto].
    + rewrite !orb_false_r. apply Hl.
Qed.

Theorem no_spurious_events q d m cs :
  (forall pos ks, In (pos, ks) cs -> forall mk c,
     In (mk, c) (eval_restricted q d pos ks) <-> In (mk, c) (eval q d) /\ sel_pos pos ks mk = true) ->
  agree (m_rows m) (eval q d) ->
  handle_candidates q d m cs = (m, []).
Proof.
  intros Hr [Hn Hl]. rewrite hc_unfold.
  assert (Hfold : hc_fold q d cs (m_rows m, m_next m, []) = (m_rows m, m_next m, [])).
  { apply (fold_left_inv (fun s => s = (m_rows m, m_next m, []))); [|reflexivity].
    intros s [pos ks] Hi ->. cbn [fst snd]. specialize (Hr pos ks Hi).
    apply (pass_noop _ _ _ _ mkey_eqb_eq cells_eqb_eq); [exact Hn|].
    intros k c. rewrite Hl. apply Hr. }
  rewrite Hfold. cbn. rewrite Z.add_0_r. destruct m; reflexivity.
Qed.

Theorem stamp_ids base evs :
  map fst (stamp base evs) = map (fun i => base + Z.of_nat i) (seq 1 (length evs)) /\
  map snd (stamp base evs) = evs.
Proof.
  unfold stamp. split; [apply map_fst_combine|apply map_snd_combine]; rewrite map_length, seq_length; reflexivity.
Qed.

Lemma hc_cid q d m cs :
  m_cid (fst (handle_candidates q d m cs)) = m_cid m + Z.of_nat (length (snd (handle_candidates q d m cs))).
Proof. rewrite hc_unfold. reflexivity. Qed.

Definition tfun (t : table) : Prop := forall k v v', In (k, v) t -> In (k, v') t -> v = v'.
Definition dbfun (d : db) : Prop := forall t, tfun (tbl d t).

Lemma tfind_in t k v : tfun t -> (In (k, v) t <-> tfind k t = Some v).
Proof.
  intros Hf. unfold tfind. destruct (find (fun r => key_eqb (fst r) k) t) as [[k' v']|] eqn:E.
  - apply find_some in E as [Hi He]. apply key_eqb_eq in He. cbn in *. subst k'.
    split; [intros H; apply f_equal, (Hf k v' v Hi H)|intros [= <-]; exact Hi].
  - split; [|discriminate]. intros Hi. apply (find_none _ _ E) in Hi. cbn in Hi.
    rewrite (proj2 (key_eqb_eq k k) eq_refl) in Hi. discriminate.
Qed.

Lemma row_unchanged told tnew k : tfun told -> tfun tnew -> row_changed told tnew k = false ->
  forall v, In (k, v) told <-> In (k, v) tnew.
Proof.
  intros Ho Hn Hc v. rewrite (tfind_in told k v Ho), (tfind_in tnew k v Hn).
  unfold row_changed in Hc. apply negb_false_iff in Hc.
  destruct (tfind k told) as [a|], (tfind k tnew) as [b|]; try discriminate.
  - apply cells_eqb_eq in Hc. subst. reflexivity.
  - split; discriminate.
Qed.

(* An environment that passes WHERE yields one result row: its key is the keys of
   the environment's rows, its cells the projection. *)
Definition proj_of (q : query) (en : env) : list val := map (fun e => ev e en) (q_proj q).
Definition mkey_of (en : env) : mkey := map (option_map fst) en.
Definition yields (q : query) (en : env) (x : mrow) : Prop :=
  truthy (ev (q_where q) en) = true /\ x = (mkey_of en, proj_of q en).

Lemma out1_spec q en x : In x (out1 q en (mkey_of en)) <-> yields q en x.
Proof. unfold out1, yields, proj_of. destruct (truthy (ev (q_where q) en)); cbn; intuition congruence. Qed.

(* The environments a query joins together: a row r0 of position 0 followed by
   `tl`.  `matched` is the INNER case, which the LEFT->INNER rewrite shares.  s0, s1 and i
   are eval_gen's sel0, sel1 (the rows of positions 0 and 1 that take part) and inner1 (a LEFT
   JOIN is run as its INNER rewrite). *)
Definition matched (q : query) (d : db) (s1 : key -> bool) (r0 : row) (tl : env) : Prop :=
  exists r1, In r1 (tbl d (q_t1 q)) /\ s1 (fst r1) = true /\
             truthy (ev (q_on q) [Some r0; Some r1]) = true /\ tl = [Some r1].

Definition joined_from (q : query) (d : db) (s1 : key -> bool) (i : bool) (r0 : row) (tl : env) : Prop :=
  match q_kind q with
  | JSingle => tl = []
  | JInner => matched q d s1 r0 tl
  | JLeft =>
      if i then matched q d s1 r0 tl
      else matched q d all_keys r0 tl \/
           ((forall r1, In r1 (tbl d (q_t1 q)) -> truthy (ev (q_on q) [Some r0; Some r1]) = false) /\
            tl = [None])
  end.

Lemma in_matched q d s1 r0 l x :
  (forall r1, In r1 l <-> In r1 (tbl d (q_t1 q)) /\ s1 (fst r1) = true /\
                          truthy (ev (q_on q) [Some r0; Some r1]) = true) ->
  (In x (flat_map (fun r1 => out1 q [Some r0; Some r1] [Some (fst r0); Some (fst r1)]) l) <->
   exists tl, matched q d s1 r0 tl /\ yields q (Some r0 :: tl) x).
Proof.
  intros Hl. rewrite in_flat_map. split.
  - intros [r1 [Hi Ho]]. apply Hl in Hi. apply (out1_spec q [Some r0; Some r1]) in Ho.
    exists [Some r1]. split; [exists r1; tauto|exact Ho].
  - intros [tl [[r1 [Hi [Hs [Hon ->]]]] Ho]]. exists r1. split; [apply Hl; auto|].
    apply (out1_spec q [Some r0; Some r1]). exact Ho.
Qed.

Lemma eval_gen_spec q d s0 s1 i x :
  In x (eval_gen q d s0 s1 i) <->
  exists r0, In r0 (tbl d (q_t0 q)) /\ s0 (fst r0) = true /\
             exists tl, joined_from q d s1 i r0 tl /\ yields q (Some r0 :: tl) x.
Proof.
  unfold eval_gen, joined_from.
  destruct (q_kind q); apply in_flat_map_filter; intros r0.
  - rewrite (out1_spec q [Some r0]). split; [intros H; exists []; auto|intros [tl [-> H]]; exact H].
  - rewrite flat_map_if. apply in_matched. intros r1. rewrite !filter_In. apply and_assoc.
  - destruct i; [apply in_matched; intros r1; rewrite !filter_In, and_assoc; apply and_iff_compat_l, and_comm|].
    rewrite in_match_nil, filter_nil, (out1_spec q [Some r0; None]), (in_matched q d all_keys)
      by (intros r1; rewrite filter_In; unfold all_keys; tauto).
    split.
    + intros [[Hno Hy]|[tl [Hm Hy]]]; [exists [None]|exists tl]; auto.
    + intros [tl [[Hm|[Hno ->]] Hy]]; [right; exists tl|left]; auto.
Qed.

Lemma row_inj t (r r' : row) : tfun t -> In r t -> In r' t -> fst r = fst r' -> r = r'.
Proof.
  destruct r as [k v], r' as [k' v']. cbn. intros Ht Hi Hi' <-. apply f_equal, (Ht k v v' Hi Hi').
Qed.

Lemma matched_inj q d s1 r0 tl tl' :
  dbfun d -> matched q d s1 r0 tl -> matched q d s1 r0 tl' -> mkey_of tl = mkey_of tl' -> tl = tl'.
Proof.
  intros Hd [r1 [Hi [_ [_ ->]]]] [r1' [Hi' [_ [_ ->]]]] [= E].
  rewrite (row_inj _ r1 r1' (Hd _) Hi Hi' E). reflexivity.
Qed.

Lemma joined_from_inj q d s1 i r0 tl tl' :
  dbfun d -> joined_from q d s1 i r0 tl -> joined_from q d s1 i r0 tl' -> mkey_of tl = mkey_of tl' -> tl = tl'.
Proof.
  intros Hd. unfold joined_from.
  destruct (q_kind q); [congruence|apply matched_inj; exact Hd|destruct i; [apply matched_inj; exact Hd|]].
  intros [Hm|[_ ->]] [Hm'|[_ ->]] E.
  - exact (matched_inj q d _ r0 tl tl' Hd Hm Hm' E).
  - destruct Hm as [r1 [_ [_ [_ ->]]]]. discriminate.
  - destruct Hm' as [r1 [_ [_ [_ ->]]]]. discriminate.
  - reflexivity.
Qed.

(* results are functions of their key: under dbfun a key names the rows, hence
   the environment, that the result row was built from *)
Lemma eval_functional q d : dbfun d -> functional mkey (list val) (eval q d).
Proof.
  intros Hd mk c c' H H'. unfold eval in *.
  apply eval_gen_spec in H as [r0 [Hi [_ [tl [J [_ [= -> ->]]]]]]].
  apply eval_gen_spec in H' as [r0' [Hi' [_ [tl' [J' [_ [= E0 E ->]]]]]]].
  rewrite (row_inj _ r0' r0 (Hd _) Hi' Hi (eq_sym E0)) in *.
  rewrite (joined_from_inj _ _ _ _ _ _ _ Hd J J' E). reflexivity.
Qed.

(* The per-table statements select exactly the result rows of the candidates:
   at position 0 for every kind of query, at position 1 for INNER joins.  (For a
   LEFT JOIN the statement of position 1 is the INNER rewrite, which cannot see
   the NULL-padded rows: Props/C11.v, C11_left_join_refuted.) *)
Definition exact_pos (q : query) (pos : nat) : Prop := pos = 0%nat \/ pos = 1%nat /\ q_kind q = JInner.

Lemma restricted_exact q d pos ks mk c : exact_pos q pos ->
  (In (mk, c) (eval_restricted q d pos ks) <-> In (mk, c) (eval q d) /\ sel_pos pos ks mk = true).
Proof.
  (* both sides run the same join; `kin ks` is asked of the row at `pos` on the
     left, of the key at `pos` on the right *)
  intros [->|[-> Hk]]; unfold eval_restricted, eval, sel_pos; rewrite !eval_gen_spec.
  - split.
    + intros [r0 [Hi [Hs [tl H]]]]. split; [exists r0; split; [exact Hi|split; [reflexivity|exists tl; exact H]]|].
      destruct H as [_ [_ [= -> _]]]. exact Hs.
    + intros [[r0 [Hi [_ [tl H]]]] Hs]. exists r0. split; [exact Hi|split; [|exists tl; exact H]].
      destruct H as [_ [_ [= -> _]]]. exact Hs.
  - unfold joined_from. rewrite Hk. split.
    + intros [r0 [Hi [_ [tl [[r1 [Hi1 [Hs [Hon ->]]]] Hy]]]]]. split.
      * exists r0. split; [exact Hi|split; [reflexivity|]]. exists [Some r1]. split; [exists r1; auto|exact Hy].
      * destruct Hy as [_ [= -> _]]. exact Hs.
    + intros [[r0 [Hi [_ [tl [[r1 [Hi1 [_ [Hon ->]]]] Hy]]]]] Hs].
      exists r0. split; [exact Hi|split; [reflexivity|]]. exists [Some r1]. split; [|exact Hy]. exists r1.
      destruct Hy as [_ [= -> _]]. auto.
Qed.

Lemma restricted_inner q d pos ks mk c : q_kind q = JInner -> (pos = 0 \/ pos = 1)%nat ->
  (In (mk, c) (eval_restricted q d pos ks) <-> In (mk, c) (eval q d) /\ sel_pos pos ks mk = true).
Proof. intros Hk [->| ->]; apply restricted_exact; [left|right]; auto. Qed.

Definition valid_cands (q : query) (cs : cands) : Prop :=
  forall pos ks, In (pos, ks) cs -> exists t, In (pos, t) (positions q).

Definition covers (q : query) (dold dnew : db) (cs : cands) : Prop :=
  forall pos t, In (pos, t) (positions q) ->
  forall k, row_changed (tbl dold t) (tbl dnew t) k = true -> exists ks, In (pos, ks) cs /\ kin ks k = true.

Lemma valid_exact q cs pos ks : valid_cands q cs -> q_kind q <> JLeft -> In (pos, ks) cs -> exact_pos q pos.
Proof.
  intros Hv Hk Hi. destruct (Hv pos ks Hi) as [t Ht]. unfold positions, exact_pos in *.
  destruct (q_kind q); [| |contradiction]; cbn in Ht.
  - destruct Ht as [[= <- _]|[]]. left. reflexivity.
  - destruct Ht as [[= <- _]|[[= <- _]|[]]]; [left|right]; auto.
Qed.

(* A result row depends only on the table rows whose keys it carries - and, for
   a LEFT JOIN, on there being no match at all in the joined table. *)
Definition same_under (q : query) (mk : mkey) (d d' : db) : Prop :=
  (forall pos t r, In (pos, t) (positions q) -> comp pos mk = Some (fst r) -> (In r (tbl d t) <-> In r (tbl d' t))) /\
  (q_kind q = JLeft -> forall r1, In r1 (tbl d (q_t1 q)) <-> In r1 (tbl d' (q_t1 q))).

Lemma same_under_sym q mk d d' : same_under q mk d d' -> same_under q mk d' d.
Proof.
  intros [H HL]. split.
  - intros pos t r Hp Hk. symmetry. exact (H pos t r Hp Hk).
  - intros Hk r1. symmetry. exact (HL Hk r1).
Qed.

Lemma eval_local q mk c d d' : same_under q mk d d' -> In (mk, c) (eval q d) -> In (mk, c) (eval q d').
Proof.
  intros [H HL] Hin. unfold eval in *.
  apply eval_gen_spec in Hin as [r0 [Hi [_ [tl [J [Hw [= -> ->]]]]]]].
  apply eval_gen_spec. exists r0. split; [|split; [reflexivity|exists tl; split; [|split; auto]]].
  - apply (H 0%nat (q_t0 q)); [unfold positions; destruct (q_kind q); left; reflexivity|reflexivity|exact Hi].
  - assert (Hm : forall s1, matched q d s1 r0 tl -> q_kind q <> JSingle -> matched q d' s1 r0 tl).
    { intros s1 [r1 [Hi1 [Hs [Hon ->]]]] Hk. exists r1. split; [|auto].
      apply (H 1%nat (q_t1 q)); [|reflexivity|exact Hi1].
      unfold positions. destruct (q_kind q); [contradiction|..]; right; left; reflexivity. }
    unfold joined_from in *. destruct (q_kind q); [exact J|apply Hm; [exact J|discriminate]|].
    destruct J as [J|[Hno ->]]; [left; apply Hm; [exact J|discriminate]|right].
    split; [|reflexivity]. intros r1 Hr1. apply Hno. apply (HL eq_refl). exact Hr1.
Qed.

Lemma uncovered_same q dold dnew cs mk :
  dbfun dold -> dbfun dnew -> covers q dold dnew cs ->
  (q_kind q = JLeft -> forall k, row_changed (tbl dold (q_t1 q)) (tbl dnew (q_t1 q)) k = false) ->
  selected cs mk = false -> same_under q mk dold dnew.
Proof.
  intros Ho Hn Hcov Hleft Hc. split.
  - intros pos t [k v] Hp Hk. apply row_unchanged; [apply Ho|apply Hn|].
    apply not_true_is_false. intros E. destruct (Hcov pos t Hp k E) as [ks [Hi Hkin]].
    enough (selected cs mk = true) by congruence.
    apply existsb_exists. exists (pos, ks). split; [exact Hi|]. unfold sel_pos. cbn [fst snd]. rewrite Hk. exact Hkin.
  - intros Hk [k1 v1]. apply row_unchanged; auto.
Qed.

(* One batch, every kind of query: any candidates that cover the changed rows
   and whose restricted statements are exact bring the matview to the new result. *)
Theorem ivm_batch q dold dnew m cs :
  dbfun dold -> dbfun dnew -> covers q dold dnew cs ->
  (forall pos ks, In (pos, ks) cs -> exact_pos q pos) ->
  (q_kind q = JLeft -> forall k, row_changed (tbl dold (q_t1 q)) (tbl dnew (q_t1 q)) k = false) ->
  agree (m_rows m) (eval q dold) ->
  agree (m_rows (fst (handle_candidates q dnew m cs))) (eval q dnew).
Proof.
  intros Ho Hn Hcov Hex Hleft Hag. rewrite hc_unfold.
  destruct (hc_fold_inv q dnew (eval q dold) (eval q dnew) (m_rows m) (m_next m) []
              (eval_functional q dnew Hn) Hag cs) as [Hnd Hl].
  { intros pos ks Hi mk c. apply restricted_exact. exact (Hex pos ks Hi). }
  split; [exact Hnd|]. intros mk c. cbn [fst m_rows]. rewrite Hl.
  destruct (selected cs mk) eqn:Hc; [reflexivity|].
  pose proof (uncovered_same q dold dnew cs mk Ho Hn Hcov Hleft Hc) as Hs.
  split; apply eval_local; [exact Hs|apply same_under_sym; exact Hs].
Qed.

Corollary ivm_nonleft q dold dnew m cs :
  q_kind q <> JLeft -> dbfun dold -> dbfun dnew -> valid_cands q cs -> covers q dold dnew cs ->
  agree (m_rows m) (eval q dold) ->
  agree (m_rows (fst (handle_candidates q dnew m cs))) (eval q dnew).
Proof.
  intros Hk Ho Hn Hv Hcov. apply ivm_batch; try assumption.
  - intros pos ks. apply valid_exact; assumption.
  - intros E. contradiction.
Qed.

Section ReplayProofs.
  Variables (K C : Type) (keqb : K -> K -> bool) (ceqb : C -> C -> bool).
  Notation ment := (ment K C).
  Notation cv := (client_view K C).
  Notation replay := (replay K C).
  Notation upsert1 := (upsert1 K C keqb ceqb).
  Notation pass := (pass K C keqb ceqb).

  Definition rinv (rows : list ment) (nxt : Z) : Prop :=
    NoDup (map fst rows) /\ forall e, In e rows -> fst e < nxt.

  (* the invariant of a state reached from client view l0: row ids are unique and
     below the next one, and the events so far replay l0 to the present rows *)
  Definition synced (l0 : list (Z * C)) (st : pstate K C) : Prop :=
    rinv (rows_of st) (snd (fst st)) /\ cv (rows_of st) = replay l0 (snd st).

  Lemma rinv_sub rows rows' nxt :
    rinv rows nxt -> NoDup (map fst rows') -> incl (map fst rows') (map fst rows) -> rinv rows' nxt.
  Proof.
    intros [_ Hlt] Hn Hi. split; [exact Hn|]. intros e He.
    apply (in_map fst), Hi, in_map_iff in He as [e0 [<- He0]]. apply Hlt. exact He0.
  Qed.

  Lemma replay_app l a b : replay l (a ++ b) = replay (replay l a) b.
  Proof. apply fold_left_app. Qed.

  Lemma cv_fst rows : map fst (cv rows) = map fst rows.
  Proof. unfold Ivm.client_view. rewrite map_map. reflexivity. Qed.

  Lemma mfind_rid k rows rid c0 : Ivm.mfind K C keqb k rows = Some (rid, c0) -> In rid (map fst rows).
  Proof.
    induction rows as [|[r [k' c']] t IH]; cbn; [discriminate|].
    destruct (keqb k' k); [intros [= -> _]; left; reflexivity|intros H; right; exact (IH H)].
  Qed.

  Lemma upd_absent (l : list (Z * C)) rid c : ~ In rid (map fst l) ->
    map (fun x => if fst x =? rid then (rid, c) else x) l = l.
  Proof.
    intros H. transitivity (map (fun x => x) l); [|apply map_id]. apply map_ext_in. intros x Hx.
    destruct (Z.eqb_spec (fst x) rid) as [<-|_]; [|reflexivity]. destruct H. apply in_map. exact Hx.
  Qed.

  Lemma cv_mset k c rows rid c0 : NoDup (map fst rows) -> Ivm.mfind K C keqb k rows = Some (rid, c0) ->
    cv (Ivm.mset K C keqb k c rows) = map (fun x => if fst x =? rid then (rid, c) else x) (cv rows).
  Proof.
    induction rows as [|[r [k' c']] t IH]; cbn; intros Hn Hf; [discriminate|].
    apply NoDup_cons_iff in Hn as [Hr Hn]. destruct (keqb k' k).
    - injection Hf as -> ->. cbn. rewrite Z.eqb_refl, upd_absent; [reflexivity|]. rewrite <- (cv_fst t) in Hr. exact Hr.
    - cbn. destruct (Z.eqb_spec r rid) as [->|_]; [destruct Hr; exact (mfind_rid _ _ _ _ Hf)|].
      apply f_equal, IH; assumption.
  Qed.

  Lemma upsert1_synced l0 st kc : synced l0 st -> synced l0 (upsert1 st kc).
  Proof.
    destruct st as [[rows nxt] evs], kc as [k c]. intros [Hr Hc]. pose proof Hr as [Hn Hlt]. unfold Ivm.upsert1.
    (* the cases first: once [synced] is unfolded the goal holds the [match] four times *)
    destruct (Ivm.mfind K C keqb k rows) as [[rid c0]|] eqn:Ef; [destruct (ceqb c0 c)|];
      unfold synced, rows_of in *; cbn [fst snd] in *.
    - split; assumption.
    - split.
      + apply (rinv_sub rows); rewrite ?(mset_proj K C keqb fst) by reflexivity; [exact Hr|exact Hn|apply incl_refl].
      + rewrite replay_app, <- Hc. apply (cv_mset k c rows rid c0); assumption.
    - split; [split|].
      + rewrite map_app. apply NoDup_snoc; [exact Hn|].
        intros Hr'. apply in_map_iff in Hr' as [e [E He]]. cbn in E. specialize (Hlt e He). lia.
      + intros e He. apply in_snoc in He as [He| ->]; [specialize (Hlt e He)|cbn]; lia.
      + rewrite replay_app, <- Hc. unfold Ivm.client_view. rewrite map_app. reflexivity.
  Qed.

  Lemma replay_dels (dead : list ment) : forall l,
    replay l (map (fun e => (EvDel, fst e, fst (snd e), snd (snd e))) dead) =
    filter (fun x => negb (existsb (Z.eqb (fst x)) (map fst dead))) l.
  Proof.
    induction dead as [|e dead IH]; intros l; cbn.
    - symmetry. apply filter_all. reflexivity.
    - unfold Ivm.replay in IH. rewrite IH.
      induction l as [|x l IHl]; cbn; [reflexivity|].
      destruct (fst x =? fst e); cbn; [exact IHl|].
      destruct (existsb (Z.eqb (fst x)) (map fst dead)); cbn; [exact IHl|apply f_equal, IHl].
  Qed.

  (* the delete phase: row ids are unique, so deleting the ids of the doomed rows
     deletes exactly the doomed rows *)
  Lemma replay_sweep (p : ment -> bool) rows : NoDup (map fst rows) ->
    replay (cv rows) (map (fun e => (EvDel, fst e, fst (snd e), snd (snd e))) (filter p rows)) =
    cv (filter (fun e => negb (p e)) rows).
  Proof.
    intros Hn. rewrite replay_dels. unfold Ivm.client_view. rewrite filter_map_comm. apply f_equal, filter_ext_in.
    intros e He. cbn [fst]. apply f_equal.
    (* left to show: the id of e is among the ids of the rows p selects iff p selects e *)
    destruct (p e) eqn:Ep.
    - apply (existsb_eqb Z.eqb Z.eqb_eq). apply in_map, filter_In. auto.
    - apply not_true_is_false. intros Hr. apply (existsb_eqb Z.eqb Z.eqb_eq) in Hr.
      apply in_map_iff in Hr as [e' [E He']]. apply filter_In in He' as [He' Hp'].
      rewrite (NoDup_map_inj fst rows e' e Hn He' He E) in Hp'. congruence.
  Qed.

  Theorem pass_synced l0 st sel newr : synced l0 st -> synced l0 (pass st sel newr).
  Proof.
    intros Hs. unfold Ivm.pass.
    pose proof (fold_left_inv _ upsert1 newr (fun a b _ => upsert1_synced l0 a b) st Hs) as H1.
    destruct (fold_left upsert1 newr st) as [[rows nxt] evs]. destruct H1 as [Hr Hc].
    unfold synced, rows_of in *. cbn [fst snd] in *. split.
    - apply (rinv_sub rows); [exact Hr|apply NoDup_map_filter, Hr|apply incl_map, incl_filter].
    - rewrite replay_app, <- Hc, replay_sweep; [reflexivity|apply Hr].
  Qed.
End ReplayProofs.

Definition minv (m : mstate) : Prop := rinv mkey (list val) (m_rows m) (m_next m).

Theorem hc_replay q d m cs : minv m ->
  minv (fst (handle_candidates q d m cs)) /\
  client_view mkey (list val) (m_rows (fst (handle_candidates q d m cs))) =
  replay mkey (list val) (client_view mkey (list val) (m_rows m)) (snd (handle_candidates q d m cs)).
Proof.
  intros Hm. rewrite hc_unfold. unfold hc_fold.
  apply (fold_left_inv (synced mkey (list val) (client_view mkey (list val) (m_rows m)))).
  - intros st c _. apply pass_synced.
  - split; [exact Hm|reflexivity].
Qed.

Definition tnodup (t : table) : Prop := NoDup (map fst t).
Definition dbnodup (d : db) : Prop := forall t, tnodup (tbl d t).

(* from the hypothesis of m_init_agree to that of the batch and history theorems *)
Lemma dbnodup_dbfun d : dbnodup d -> dbfun d.
Proof.
  intros H t k v v' Hi Hi'.
  pose proof (NoDup_map_inj fst _ (k, v) (k, v') (H t) Hi Hi' eq_refl) as E. congruence.
Qed.

(* what one environment contributes to the result; g is its ON test, [true] where the query
   has none *)
Lemma piece_keys q en mk (g : bool) b : In b (if g then out1 q en mk else []) -> fst b = mk.
Proof. unfold out1. destruct g, (truthy (ev (q_where q) en)); cbn; intuition (subst; reflexivity). Qed.

Lemma piece_nodup q en mk (g : bool) : NoDup (map fst (if g then out1 q en mk else [])).
Proof. unfold out1. destruct g, (truthy (ev (q_where q) en)); cbn; repeat constructor; intros []. Qed.

(* a result key carries at position p the key of the p-th row it was built from,
   and the table rows have distinct keys *)
Lemma eval_keys_nodup q d s0 s1 : q_kind q <> JLeft -> dbnodup d -> NoDup (map fst (eval_gen q d s0 s1 false)).
Proof.
  intros Hk Hd. unfold eval_gen.
  destruct (q_kind q); [| |contradiction]; apply (NoDup_map_flat_map _ _ (fun r : row => fst r) (comp 0)).
  - intros r0 b Hb. rewrite (piece_keys _ _ _ true _ Hb). reflexivity.
  - intros r0. apply (piece_nodup _ _ _ true).
  - apply NoDup_map_filter, Hd.
  - intros r0 b Hb. apply in_flat_map in Hb as [r1 [_ Hb]]. rewrite (piece_keys _ _ _ _ _ Hb). reflexivity.
  - intros r0. apply (NoDup_map_flat_map _ _ (fun r : row => fst r) (comp 1)).
    + intros r1 b Hb. rewrite (piece_keys _ _ _ _ _ Hb). reflexivity.
    + intros r1. apply piece_nodup.
    + apply NoDup_map_filter, Hd.
  - apply NoDup_map_filter, Hd.
Qed.

Theorem m_init_agree q d : q_kind q <> JLeft -> dbnodup d ->
  agree (m_rows (m_init q d)) (eval q d) /\ minv (m_init q d) /\ m_cid (m_init q d) = 0.
Proof.
  intros Hk Hd. pose proof (eval_keys_nodup q d all_keys all_keys Hk Hd) as Hn. fold (eval q d) in Hn.
  unfold m_init, minv, rinv. cbn [m_rows m_next m_cid].
  set (R := eval q d) in *. set (ids := map Z.of_nat (seq 1 (length R))).
  assert (Hlen : length ids = length R) by (unfold ids; rewrite map_length, seq_length; reflexivity).
  assert (Hkeys : NoDup (mkeys (combine ids R))).
  { unfold keys. rewrite <- (map_map snd fst), map_snd_combine; assumption. }
  split; [split; [exact Hkeys|]|split; [split|reflexivity]].
  - intros mk c. rewrite (look_some _ _ _ mkey_eqb_eq) by exact Hkeys.
    rewrite map_snd_combine by exact Hlen. reflexivity.
  - rewrite map_fst_combine by exact Hlen. apply Injective_map_NoDup; [intros a b H; lia|apply seq_NoDup].
  - intros [i r] He. apply in_combine_l, in_map_iff in He as [n [<- Hi]]. apply in_seq in Hi. cbn. lia.
Qed.

Lemma tfind_some_in k t v : tfind k t = Some v -> In k (map fst t).
Proof.
  unfold tfind. destruct (find (fun r => key_eqb (fst r) k) t) as [[k' v']|] eqn:E; [|discriminate].
  intros _. apply find_some in E as [Hi He]. cbn in He. apply key_eqb_eq in He. subst.
  exact (in_map fst t (k, v') Hi).
Qed.

Lemma changed_keys_kin told tnew k : row_changed told tnew k = true -> kin (changed_keys told tnew) k = true.
Proof.
  intros Hc. apply kin_spec. unfold changed_keys. apply filter_In. split; [|exact Hc].
  apply in_app_iff. unfold row_changed in Hc.
  destruct (tfind k told) as [a|] eqn:E1; [left; exact (tfind_some_in _ _ _ E1)|].
  destruct (tfind k tnew) as [b|] eqn:E2; [right; exact (tfind_some_in _ _ _ E2)|discriminate].
Qed.

Lemma cands_of_ok q dold dnew : valid_cands q (cands_of q dold dnew) /\ covers q dold dnew (cands_of q dold dnew).
Proof.
  unfold cands_of. split.
  - intros pos ks Hi. apply filter_In in Hi as [Hi _]. apply in_map_iff in Hi as [[p t] [[= <- _] Hi]].
    exists t. exact Hi.
  - intros pos t Hp k Hc. exists (changed_keys (tbl dold t) (tbl dnew t)).
    pose proof (changed_keys_kin _ _ _ Hc) as Hk. split; [|exact Hk].
    apply filter_In. split; [exact (in_map _ _ (pos, t) Hp)|].
    cbn. destruct (changed_keys (tbl dold t) (tbl dnew t)); [discriminate|reflexivity].
Qed.

Fixpoint run_hist (q : query) (m : mstate) (dprev : db) (ds : list db) : mstate :=
  match ds with
  | [] => m
  | d :: t => run_hist q (fst (handle_candidates q d m (cands_of q dprev d))) d t
  end.

Theorem history_correct q : q_kind q <> JLeft -> forall ds d0 m,
  dbfun d0 -> Forall dbfun ds -> agree (m_rows m) (eval q d0) ->
  agree (m_rows (run_hist q m d0 ds)) (eval q (last ds d0)).
Proof.
  intros Hk. induction ds as [|d ds IH]; intros d0 m H0 Hall Hag; [exact Hag|].
  apply Forall_cons_iff in Hall as [Hd Hall]. rewrite last_cons. cbn [run_hist].
  destruct (cands_of_ok q d0 d) as [Hv Hc].
  apply (IH d _ Hd Hall). apply (ivm_nonleft q d0 d); assumption.
Qed.
