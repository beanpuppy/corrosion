(* One step of the seq-range bookkeeping of process_incomplete_version (C03_seq_rows_step,
   C03_delete_predicate).  Over a sequence of chunks the invariant is carried by o_rows, o_rset,
   o_cov of PartialProofs.Open. *)
From Coq Require Import List ZArith Bool Lia.
From Corro Require Import Lib.Ivl Lib.ListFacts Model.Book Model.SeqRows.
Import ListNotations.
Open Scope Z_scope.

Lemma seq_del_pred_spec rs re s e :
  0 <= rs <= re -> 0 <= s <= e ->
  (seq_del_pred rs re s e = true <-> rs <= e + 1 /\ s - 1 <= re).
Proof.
  intros Hr Hs. unfold seq_del_pred, Gen.SeqSql.seq_del_pred_src.
  etransitivity; [b2p|lia].
Qed.

Definition rset (rows : list srow) : iset := map fst rows.

Lemma srow_insert_fst r rows :
  option_map rset (srow_insert r rows) = row_insert (fst r) (rset rows).
Proof.
  induction rows as [|x t IH]; [reflexivity|]. cbn [srow_insert rset map row_insert].
  destruct (fst (fst r) =? fst (fst x)); [reflexivity|].
  destruct (fst (fst r) <? fst (fst x)); [reflexivity|].
  fold (rset t). rewrite <- IH. destruct (srow_insert r t); reflexivity.
Qed.

Lemma srow_insert_In r rows rows' : srow_insert r rows = Some rows' -> In r rows'.
Proof.
  revert rows'. induction rows as [|x t IH]; intros rows'; cbn [srow_insert].
  - intros [= <-]. left. reflexivity.
  - destruct (fst (fst r) =? fst (fst x)); [discriminate|].
    destruct (fst (fst r) <? fst (fst x)); [intros [= <-]; left; reflexivity|].
    destruct (srow_insert r t) as [t'|]; [|discriminate]. intros [= <-]. right. apply IH. reflexivity.
Qed.

Lemma rset_filter (f : Z * Z -> bool) (rows : list srow) :
  rset (filter (fun r => f (fst r)) rows) = filter f (rset rows).
Proof.
  induction rows as [|x t IH]; [reflexivity|]. cbn. destruct (f (fst x)); cbn; [f_equal|]; exact IH.
Qed.

(* What the DELETE/union/INSERT of process_incomplete_version computes, on ranges alone:
   [hit] selects the ranges of R that overlap or touch s..e.  Inserting s..e into those
   leaves ONE range a..b, and putting a..b back beside the others as a row is the
   interval-set insertion of s..e into R.  The induction follows [ins]: a range before
   s..e is kept, a range after it ends the walk, a range touching it is absorbed and the
   walk goes on with the widened range -- for which the later ranges are hit or not
   exactly as for s..e. *)
Lemma ins_hit_row_insert hit : forall R lo s e, canon_from lo R -> s <= e ->
  (forall p, In p R -> (hit p = true <-> fst p <= e + 1 /\ s - 1 <= snd p)) ->
  exists a b, ins s e (filter hit R) = [(a, b)] /\ Z.min lo s <= a <= s /\ e <= b /\
    row_insert (a, b) (filter (fun p => negb (hit p)) R) = Some (ins s e R).
Proof.
  induction R as [|[p q] t IH]; intros lo s e Hc Hse Hhit.
  - exists s, e. repeat split; lia.
  - destruct Hc as (H1 & H2 & H3).
    assert (Ht : forall r, In r t -> q + 2 <= fst r <= snd r)
      by (intros r Hr; destruct (canon_In_ok _ _ _ H3 Hr); lia).
    pose proof (Hhit (p, q) (or_introl eq_refl)) as Hpq. cbn [fst snd] in Hpq.
    cbn [ins]. destruct (q + 1 <? s) eqn:E1; [|destruct (e + 1 <? p) eqn:E2].
    + cbn [filter]. assert (hit (p, q) = false) as -> by (apply not_true_iff_false; rewrite Hpq; zb; lia).
      destruct (IH (q + 2) s e H3 Hse) as (a & b & Hi & Ha & Hb & Hr);
        [intros r Hr; apply Hhit; right; exact Hr|].
      exists a, b. zb. split; [exact Hi|]. split; [lia|]. split; [exact Hb|].
      cbn [negb row_insert fst]. rewrite Hr.
      destruct (Z.eqb_spec a p); [lia|]. destruct (Z.ltb_spec a p); [lia|reflexivity].
    + zb. assert (Hno : forall r, In r ((p, q) :: t) -> hit r = false).
      { intros r Hr. apply not_true_iff_false. rewrite (Hhit r Hr).
        destruct Hr as [<-|Hr]; [cbn; lia|specialize (Ht r Hr); lia]. }
      rewrite (proj2 (filter_nil hit _) Hno), filter_all by (intros r Hr; rewrite (Hno r Hr); reflexivity).
      exists s, e. split; [reflexivity|]. split; [lia|]. split; [lia|].
      cbn [row_insert fst]. destruct (Z.eqb_spec s p); [lia|].
      destruct (Z.ltb_spec s p); [reflexivity|lia].
    + cbn [filter]. assert (hit (p, q) = true) as -> by (apply Hpq; zb; lia).
      cbn [negb ins]. rewrite E1, E2. zb.
      destruct (IH (q + 2) (Z.min s p) (Z.max e q) H3 ltac:(lia)) as (a & b & Hi & Ha & Hb & Hr).
      { intros r Hr. rewrite (Hhit r (or_intror Hr)). specialize (Ht r Hr). lia. }
      exists a, b. split; [exact Hi|]. split; [lia|]. split; [lia|exact Hr].
Qed.

Definition rows_ok (rows : list srow) : Prop :=
  (exists lo, canon_from lo (rset rows)) /\ (forall p, In p (rset rows) -> 0 <= fst p).

Lemma rows_ok_iff rows : rows_ok rows <-> canon_from 0 (rset rows).
Proof.
  unfold rows_ok. split.
  - intros [[lo Hc] Hpos]. destruct (rset rows) as [|[a b] t]; [exact I|].
    specialize (Hpos (a, b) (or_introl eq_refl)). cbn in *. tauto.
  - intros Hc. split; [exists 0; exact Hc|]. intros p Hp. apply (canon_In_ok _ _ _ Hc Hp).
Qed.

Lemma rows_ok_nil : rows_ok [].
Proof. apply rows_ok_iff. exact I. Qed.

Theorem incomplete_rows_ok rows s e last :
  rows_ok rows -> 0 <= s <= e ->
  exists rows' a b,
    incomplete_rows rows s e last = IncOk rows' [(a, b)] /\
    rows_ok rows' /\
    rset rows' = ins s e (rset rows) /\
    a <= s /\ e <= b /\ In (a, b) (rset rows').
Proof.
  intros Hc Hse. apply rows_ok_iff in Hc.
  set (hit := fun p : Z * Z => seq_del_pred (fst p) (snd p) s e).
  destruct (ins_hit_row_insert hit (rset rows) 0 s e Hc ltac:(lia)) as (a & b & Hi & Ha & Hb & Hr).
  { intros p Hp. apply seq_del_pred_spec; [destruct (canon_In_ok _ _ _ Hc Hp); lia|exact Hse]. }
  unfold incomplete_rows.
  (* a row is hit when its range is, so the two filters of incomplete_rows (deleted, kept) are filters of
     rset rows by hit and by its negation; and ins_all l [] is norm l *)
  change (ins_all (map fst (filter _ rows)) []) with (norm (rset (filter (fun r => hit (fst r)) rows))).
  rewrite (rset_filter hit), norm_id, Hi by (exists 0; apply canon_filter, Hc).
  match goal with |- context [srow_insert ?r ?k] => pose proof (srow_insert_fst r k) as Hf end.
  rewrite (rset_filter (fun p => negb (hit p))) in Hf. cbn [fst] in Hf. rewrite Hr in Hf.
  destruct (srow_insert _ _) as [rows'|] eqn:Es; [|discriminate]. injection Hf as Heq.
  exists rows', a, b. split; [reflexivity|]. split.
  { apply rows_ok_iff. rewrite Heq.
    apply (canon_from_weaken (Z.min 0 s)); [lia|apply ins_canon; [lia|exact Hc]]. }
  split; [exact Heq|]. split; [lia|]. split; [exact Hb|].
  apply (in_map fst _ _ (srow_insert_In _ _ _ Es)).
Qed.
