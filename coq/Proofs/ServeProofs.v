(* C05 (Model/Serve.v).  Messages about a version come from send_change_chunks, whose loop is
   named here (msgs_of, sent_chunks) so that every statement about them is one about the chunks of
   the C08 iterator. *)
From Coq Require Import List ZArith Bool Lia.
From Corro Require Import Lib.Ivl Lib.ListFacts Gen.Consts Gen.NeedSql Model.Chunk Model.Serve Proofs.ChunkProofs.
Import ListNotations.
Open Scope Z_scope.

Definition msg_of_chunk (v last : Z) (ch : chunk) : msg :=
  MFull v (map (fun g => (c_seq g, c_id g)) (fst ch)) (fst (snd ch)) (snd (snd ch)) last.

(* Every message is the image of a chunk; the loop stops early only at an empty chunk
   spanning 0..=last ("got an empty changes we should've had"). *)
Definition msgs_of (v last : Z) : list chunk -> list msg :=
  fix go (l : list chunk) : list msg :=
    match l with
    | [] => []
    | (c, (x, y)) :: t =>
      match c with
      | [] => if (x =? 0) && (y =? last) then [] else MFull v [] x y last :: go t
      | _ => MFull v (map (fun g => (c_seq g, c_id g)) c) x y last :: go t
      end
    end.

Definition sent_chunks (rz : Z) (rows : list row) (a b : Z) : list chunk :=
  fst (run (repeat max_changes_bytes_per_message (S (length rows)))
           (start_cursor (map (fun r => mkChg (fst r) rz (snd r)) rows) a b)).

Lemma send_chunks_eq rz v last rows a b :
  send_chunks rz v last rows a b = msgs_of v last (sent_chunks rz rows a b).
Proof. reflexivity. Qed.

Lemma msgs_of_incl v last : forall l, incl (msgs_of v last l) (map (msg_of_chunk v last) l).
Proof.
  induction l as [|[c [x y]] t IH]; [apply incl_refl|]. cbn [msgs_of map].
  destruct c; [destruct ((x =? 0) && (y =? last)); [apply incl_nil_l|]|].
  all: apply incl_cons; [left; reflexivity|apply incl_tl, IH].
Qed.

Lemma msgs_of_map v last : forall l, ~ In ([], (0, last)) l -> msgs_of v last l = map (msg_of_chunk v last) l.
Proof.
  induction l as [|[c [x y]] t IH]; intros Hl; [reflexivity|]. cbn [msgs_of map].
  rewrite IH by (intros Hch; apply Hl; right; exact Hch).
  destruct c; [|reflexivity]. destruct ((x =? 0) && (y =? last)) eqn:E; [|reflexivity].
  apply andb_true_iff in E as [E1 E2]. apply Z.eqb_eq in E1, E2. subst.
  destruct Hl. left. reflexivity.
Qed.

(* the chunks sent are those of the C08 tiling theorem: one more limit than there are rows *)
Lemma sent_chunks_spec rz rows a b :
  wf_input (map (fun r => mkChg (fst r) rz (snd r)) rows) a b = true ->
  chunks_spec (map (fun r => mkChg (fst r) rz (snd r)) rows) a b (sent_chunks rz rows a b).
Proof.
  intros Hwf. pose proof (run_repeat_tiles max_changes_bytes_per_message _ a b Hwf) as H.
  rewrite map_length in H. exact H.
Qed.

Lemma send_chunks_only_full rz v last rows a b m :
  In m (send_chunks rz v last rows a b) -> exists r s e, m = MFull v r s e last.
Proof. intros H. apply msgs_of_incl, in_map_iff in H. destruct H as (ch & <- & _). unfold msg_of_chunk. eauto. Qed.

Lemma buffered_msgs_only_full sv v q m :
  In m (buffered_msgs sv v q) -> exists r s e l, m = MFull v r s e l.
Proof.
  unfold buffered_msgs. intros H. apply in_flat_map in H. destruct H as ([[rs re] last] & _ & H).
  destruct q as [[qs qe]|].
  - destruct (need_overlap_pred_src _ _ _ _) in H; [|destruct H].
    apply send_chunks_only_full in H. destruct H as (r & s & e & ->). eauto.
  - apply send_chunks_only_full in H. destruct H as (r & s & e & ->). eauto.
Qed.

Theorem partial_empty_only_if_cleared sv v seqs lo hi :
  In (MEmpty lo hi) (handle_need_partial sv v seqs) ->
  lo = v /\ hi = v /\ holds_live sv v = false /\ holds_buf sv v = false /\ memb v (sv_gaps sv) = false.
Proof.
  unfold handle_need_partial, holds_live, holds_buf. intros H.
  destruct (vget v (sv_live sv)) as [rows|].
  - apply in_flat_map in H as (q & _ & H). apply send_chunks_only_full in H as (? & ? & ? & [=]).
  - destruct (match vget v (sv_buf sv) with Some (_ :: _) => true | _ => false end).
    + apply in_flat_map in H as (q & _ & H). apply buffered_msgs_only_full in H as (? & ? & ? & ? & [=]).
    + destruct (memb v (sv_gaps sv)); [destruct H|]. destruct H as [[= <- <-]|[]]. auto.
Qed.

Lemma empties_msgs_In vs lo hi v : In (MEmpty lo hi) (empties_msgs vs) -> lo <= v <= hi -> In v vs.
Proof.
  unfold empties_msgs. intros H Hv. apply in_map_iff in H as ([a b] & [= <- <-] & Hin).
  apply (In_mem _ _ v) in Hin; [|exact Hv].
  apply (norm_mem (map _ vs)), (mem_points (fun w => w)) in Hin; [|apply (ranges_ok_points (fun w => w))].
  destruct Hin as (w & Hw & ->). exact Hw.
Qed.

Theorem full_empty_only_if_cleared sv s e lo hi v :
  In (MEmpty lo hi) (handle_need_full sv s e) -> lo <= v <= hi ->
  s <= v <= e /\ holds_live sv v = false /\ holds_buf sv v = false /\ memb v (sv_gaps sv) = false.
Proof.
  unfold handle_need_full. intros H Hv.
  apply in_app_iff in H as [H|H]; [|apply in_app_iff in H as [H|H]].
  - apply in_flat_map in H as (w & _ & H). destruct (vget w (sv_live sv)); [|destruct H].
    apply send_chunks_only_full in H as (? & ? & ? & [=]).
  - apply in_flat_map in H as (w & _ & H).
    destruct (match vget w (sv_buf sv) with Some (_ :: _) => true | _ => false end); [|destruct H].
    apply buffered_msgs_only_full in H as (? & ? & ? & ? & [=]).
  - apply (empties_msgs_In _ _ _ v) in H; [|exact Hv].
    apply filter_In in H as [H Hc]. apply filter_In in H as [Hr Hl]. apply In_seqZ in Hr.
    apply andb_true_iff in Hc as [Hb Hg]. apply negb_true_iff in Hb, Hg.
    unfold holds_live, holds_buf. split; [exact Hr|].
    split; [destruct (vget v (sv_live sv)); [discriminate|reflexivity]|].
    split; [exact Hb|exact Hg].
Qed.

Theorem send_chunks_in_range rz v last rows a b m :
  wf_input (map (fun r => mkChg (fst r) rz (snd r)) rows) a b = true ->
  In m (send_chunks rz v last rows a b) ->
  match m with
  | MFull _ r s e _ => Forall (fun x => s <= fst x <= e) r /\ a <= s /\ e <= b
  | MEmpty _ _ => False
  end.
Proof.
  intros Hwf Hm. destruct (sent_chunks_spec rz rows a b Hwf) as (Htiles & _ & Hin).
  apply msgs_of_incl, in_map_iff in Hm. destruct Hm as (ch & <- & Hch).
  pose proof (tiles_bounds _ _ _ Htiles) as [_ Hall]. destruct (Hall (snd ch) (in_map snd _ _ Hch)).
  split; [|lia]. rewrite Forall_forall in Hin. apply Forall_map, (Hin ch Hch).
Qed.

(* The hypothesis stands for "the buffered rows of v are sorted by distinct seq", which is what buf_insert
   (Model/Partial.v) keeps: then every filtered part is a well-formed input of the iterator.  It is assumed;
   nothing in this development discharges it.  As written it is asked of all a, b within rs..re, also of
   a > b, where wf_input is false: a version that has a seq row does not meet it. *)
Theorem buffered_range_within_held sv v q m :
  (forall rs re last a b, In ((rs, re), last) (match vget v (sv_seq sv) with Some r => r | None => [] end) ->
     rs <= a -> b <= re ->
     wf_input (map (fun r => mkChg (fst r) (sv_rowsize sv) (snd r))
                   (filter (in_range a b) (match vget v (sv_buf sv) with Some b0 => b0 | None => [] end))) a b = true) ->
  In m (buffered_msgs sv v q) ->
  match m with
  | MFull _ _ s e _ => exists rs re last,
      In ((rs, re), last) (match vget v (sv_seq sv) with Some r => r | None => [] end) /\ rs <= s /\ e <= re
  | MEmpty _ _ => False
  end.
Proof.
  intros Hwf Hm. destruct m as [v' r s e l|]; [|apply buffered_msgs_only_full in Hm as (? & ? & ? & ? & [=])].
  unfold buffered_msgs in Hm. apply in_flat_map in Hm as [[[rs re] last] [Hsr Hm]].
  exists rs, re, last. split; [exact Hsr|].
  (* with or without a requested range, s..e lies in the a..b that is served, and a..b in rs..re *)
  destruct q as [[qs qe]|].
  - destruct (need_overlap_pred_src rs re qs qe); [|destruct Hm].
    apply send_chunks_in_range in Hm; [lia|apply (Hwf rs re last _ _ Hsr); lia].
  - apply send_chunks_in_range in Hm; [lia|apply (Hwf rs re last _ _ Hsr); lia].
Qed.

Definition msg_range (m : msg) : Z * Z := match m with MFull _ _ s e _ => (s, e) | MEmpty lo hi => (lo, hi) end.
Definition msg_rows (m : msg) : list row := match m with MFull _ r _ _ _ => r | MEmpty _ _ => [] end.

Theorem live_version_tiles_exact rz v rows :
  rows <> [] ->
  wf_input (map (fun r => mkChg (fst r) rz (snd r)) rows) 0 (maxseq rows) = true ->
  let ms := send_chunks rz v (maxseq rows) rows 0 (maxseq rows) in
  tiles 0 (maxseq rows) (map msg_range ms) /\
  concat (map msg_rows ms) = rows /\
  Forall (fun m => match m with MFull v' _ _ _ l => v' = v /\ l = maxseq rows | MEmpty _ _ => False end) ms.
Proof.
  intros Hne Hwf. cbv zeta. rewrite send_chunks_eq.
  pose proof (sent_chunks_spec rz rows 0 (maxseq rows) Hwf) as (Htiles & Hcat & _).
  set (out := sent_chunks _ _ _ _) in *. set (last := maxseq rows) in *.
  (* the early exit is not taken: an empty chunk spanning 0..=last would be the only chunk, and rows is not empty *)
  rewrite msgs_of_map.
  2:{ intros Hch. pose proof (tiles_whole _ _ _ Htiles (in_map snd _ _ Hch)) as Hone. (* map snd out = [(0, last)] *)
      destruct out as [|[c0 r0] [|o2 out']]; try discriminate Hone.
      destruct Hch as [[= -> _]|[]]. destruct rows; [congruence|discriminate Hcat]. }
  rewrite !map_map. split; [|split].
  - erewrite map_ext; [exact Htiles|]. intros [c [x y]]. reflexivity.
  - transitivity (map (fun g => (c_seq g, c_id g)) (concat (map fst out))); [rewrite concat_map, map_map; reflexivity|].
    rewrite Hcat, map_map. etransitivity; [|apply map_id]. apply map_ext. intros [a b]. reflexivity.
  - apply Forall_map, Forall_forall. intros ch _. split; reflexivity.
Qed.

Theorem full_need_answers_live_version sv s e v rows m :
  vget v (sv_live sv) = Some rows -> s <= v <= e ->
  In m (send_chunks (sv_rowsize sv) v (maxseq rows) rows 0 (maxseq rows)) ->
  In m (handle_need_full sv s e).
Proof.
  intros Hl Hv Hm. unfold handle_need_full. apply in_or_app. left.
  apply in_flat_map. exists v. split.
  - apply -> in_rev. apply filter_In. split; [apply In_seqZ; exact Hv|]. rewrite Hl. reflexivity.
  - rewrite Hl. exact Hm.
Qed.

(* no adjacency, unlike the DELETE of the ingest path (SeqRowsProofs.seq_del_pred_spec) *)
Theorem need_overlap_select_exact rs re s e :
  rs <= re -> s <= e ->
  (need_overlap_pred_src rs re s e = true <-> exists x, rs <= x <= re /\ s <= x <= e).
Proof.
  intros H1 H2. unfold need_overlap_pred_src.
  etransitivity; [b2p|]. split.
  - intros H. exists (Z.max rs s). lia.
  - intros [x Hx]. lia.
Qed.

Theorem need_overlap_clamp_nonempty rs re s e :
  rs <= re -> s <= e -> need_overlap_pred_src rs re s e = true ->
  Z.max rs s <= Z.min re e /\ rs <= Z.max rs s /\ Z.min re e <= re /\ s <= Z.max rs s /\ Z.min re e <= e.
Proof.
  intros H1 H2 H. apply need_overlap_select_exact in H; [|assumption|assumption]. destruct H as [x Hx]. lia.
Qed.
