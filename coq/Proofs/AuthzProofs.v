From Coq Require Import List ZArith Bool.
From Corro Require Import Lib.ListFacts Model.Authz.
Import ListNotations.
Open Scope Z_scope.

Lemma zl_eqb_eq : forall a b, zl_eqb a b = true <-> a = b.
Proof. apply (list_eqb_spec Z.eqb); [exact Z.eqb_eq|intros [|x a] [|y b]; reflexivity]. Qed.

Theorem passes_spec cfg h :
  passes true cfg h = None <-> (cfg = None \/ exists tok, cfg = Some tok /\ h = HBearer tok).
Proof.
  unfold passes. destruct cfg as [tok|].
  2:{ destruct h; split; auto. }
  destruct h as [| |t].
  - (* malformed header *) split; [discriminate|intros [H|[t [_ H]]]; discriminate].
  - (* no header *) split; [discriminate|intros [H|[t [_ H]]]; discriminate].
  - split.
    + destruct (zl_eqb t tok) eqn:E; [|discriminate]. intros _. apply zl_eqb_eq in E. subst. right. exists tok. auto.
    + intros [H|[t' [[= ->] [= ->]]]]; [discriminate|]. rewrite (proj2 (zl_eqb_eq t' t') eq_refl). reflexivity.
Qed.

Lemma passes_refusal mia cfg h o : passes mia cfg h = Some o -> o = O401 \/ o = O400.
Proof.
  unfold passes. destruct h as [| |t], cfg as [tok|], mia; try destruct (zl_eqb t tok); intros [= <-]; auto.
Qed.

Lemma find_route_guarded p m rs : forallb (fun r : groute => snd r) rs = true ->
  forall i r g, find_route p m rs i = Some (r, g) -> g = true.
Proof.
  induction rs as [|[[p' m'] g'] t IH]; cbn; intros Hall i r g Hfind; [discriminate|].
  apply andb_true_iff in Hall as [H1 H2].
  destruct (zl_eqb p p' && meth_eqb m m'); [injection Hfind as _ <-; exact H1|exact (IH H2 _ _ _ Hfind)].
Qed.

(* when every route and the fallback are under the authorization layer, a refused
   request never reaches a handler, whatever route or method it names *)
Theorem guarded_refusal mia items cfg p m h o :
  all_guarded items = true -> passes mia cfg h = Some o ->
  api_serve mia items cfg p m h = o /\ (o = O401 \/ o = O400).
Proof.
  intros Hg Hp. split; [|exact (passes_refusal _ _ _ _ Hp)].
  unfold api_serve, all_guarded in *. destruct (build items) as [routes fb]. cbn [fst snd] in Hg.
  apply andb_true_iff in Hg as [Hr ->].
  destruct (find_route p m routes 0) as [[i g]|] eqn:E; [rewrite (find_route_guarded _ _ _ Hr _ _ _ E)|]; rewrite Hp; reflexivity.
Qed.

Theorem admitted_reaches mia items cfg p m h :
  passes mia cfg h = None ->
  exists o, api_serve mia items cfg p m h = o /\ o <> O401 /\ o <> O400.
Proof.
  intros Hp. unfold api_serve. destruct (build items) as [routes fb].
  destruct (find_route p m routes 0) as [[i g]|].
  - destruct g; [rewrite Hp|]; eexists; (split; [reflexivity|split; discriminate]).
  - destruct fb; [rewrite Hp|]; eexists; (split; [reflexivity|split; discriminate]).
Qed.

Definition guarded (st : list groute * bool) : Prop :=
  forallb (fun r : groute => snd r) (fst st) = true /\ snd st = true.

Lemma authz_layer_guards st : guarded (add_item st (RLayer LAuthz)).
Proof. split; [|reflexivity]. cbn. induction (fst st) as [|r t IH]; [reflexivity|exact IH]. Qed.

Lemma layers_keep_guarded rest : (forall it, In it rest -> it = RLayer LOther \/ it = RLayer LAuthz \/ it = RRouteLayer) ->
  forall st, guarded st -> guarded (fold_left add_item rest st).
Proof.
  intros Hl. apply fold_left_inv. intros st it Hit Hst.
  destruct (Hl it Hit) as [->|[->| ->]]; [exact Hst|apply authz_layer_guards|exact Hst].
Qed.

(* a layer added after the routes guards all of them, whatever came before it *)
Lemma build_routes_then_authz routes rest :
  (forall it, In it routes -> exists p m, it = RRoute p m) ->
  (forall it, In it rest -> it = RLayer LOther \/ it = RLayer LAuthz \/ it = RRouteLayer) ->
  all_guarded (routes ++ RLayer LAuthz :: rest) = true.
Proof.
  intros _ Hrest. unfold all_guarded, build. rewrite fold_left_app. cbn [fold_left].
  apply andb_true_iff, (layers_keep_guarded rest Hrest), authz_layer_guards.
Qed.
