(* Proofs about Model/Book.v: insert_db keeps the persisted gap rows equal to
   the in-memory needed set, never errs, deletes exactly one row per removed
   range, and realises the set-level spec
       needed' = (needed ∪ [max+1, s] for inserted starts s beyond max+1) \ inserted. *)
From Coq Require Import List ZArith Bool Lia.
From Corro Require Import Lib.Ivl Lib.ListFacts Model.Book Model.BookOps Proofs.SeqRowsProofs.
Import ListNotations.
Open Scope Z_scope.

Lemma pair_eqb_eq a b : pair_eqb a b = true <-> a = b.
Proof.
  destruct a, b; unfold pair_eqb; cbn. rewrite andb_true_iff, !Z.eqb_eq.
  split; [intros [-> ->]; reflexivity|inversion 1; auto].
Qed.

Lemma pair_eqb_neq a b : pair_eqb a b = false <-> a <> b.
Proof. rewrite <- not_true_iff_false, pair_eqb_eq. reflexivity. Qed.

Lemma existsb_pair r l : existsb (pair_eqb r) l = true <-> In r l.
Proof. exact (existsb_eqb pair_eqb pair_eqb_eq r l). Qed.

Lemma max0_omax m v : 0 <= v -> max0 (omax m v) = Z.max (max0 m) v.
Proof. destruct m; cbn; lia. Qed.

(* from here on [inr] is this, not the constructor of [sum] *)
Definition inr (x : Z) (t : Z * Z) : Prop := fst t <= x <= snd t.

Lemma canonical_near_eq s t1 t2 x y : canonical s ->
  In t1 s -> In t2 s -> inr x t1 -> inr y t2 -> x <= y <= x + 1 -> t1 = t2.
Proof. intros [lo Hc] H1 H2 Hx Hy Hxy. apply (canon_In_near s lo t1 t2 x y); auto. lia. Qed.

Lemma get_incl x s : incl (opt_list (get x s)) s.
Proof.
  intros t Ht. destruct (get x s) eqn:E; [|destruct Ht].
  destruct Ht as [<-|[]]. apply get_Some in E. tauto.
Qed.

Section Amap.
  Context {V : Type}.
  Implicit Types (m : list (Z * V)).

  Lemma aget_aset m v p u : aget u (aset v p m) = if u =? v then Some p else aget u m.
  Proof.
    induction m as [|[k w] m IH]; cbn [aset aget]; [reflexivity|].
    destruct (v =? k) eqn:E1; [|destruct (v <? k)]; cbn [aget].
    - zb. subst k. destruct (u =? v); reflexivity.
    - reflexivity.
    - rewrite IH. destruct (u =? k) eqn:E2, (u =? v) eqn:E3; zb; try reflexivity. congruence.
  Qed.

  Lemma aget_In m v p : aget v m = Some p -> In (v, p) m.
  Proof.
    induction m as [|[k w] m IH]; cbn [aget]; [discriminate|].
    destruct (v =? k) eqn:E; [zb; subst; intros [= ->]; left; reflexivity|right; auto].
  Qed.

  Lemma aget_none_notin m v : aget v m = None -> forall q, ~ In (v, q) m.
  Proof.
    induction m as [|[k x] t IH]; cbn [aget]; [intros _ q []|].
    destruct (v =? k) eqn:E; [discriminate|]. intros H q [Hin|Hin].
    - injection Hin as -> _. rewrite Z.eqb_refl in E. discriminate.
    - exact (IH H q Hin).
  Qed.

  (* whatever the order of m *)
  Lemma In_aset m k w kv : In kv (aset k w m) -> In kv ((k, w) :: m).
  Proof.
    induction m as [|[k' w'] m IH]; cbn [aset]; [exact (fun H => H)|].
    destruct (k =? k'); [|destruct (k <? k'); [exact (fun H => H)|]]; cbn [In] in *.
    - intros [H|H]; auto.
    - intros [H|H]; [auto|]. destruct (IH H); auto.
  Qed.

  Lemma aget_filter_key (g : Z -> bool) m v :
    aget v (filter (fun kv => g (fst kv)) m) = if g v then aget v m else None.
  Proof.
    induction m as [|[k w] m IH]; cbn [filter aget fst]; [destruct (g v); reflexivity|].
    destruct (v =? k) eqn:E.
    - zb. subst k. destruct (g v); [cbn [aget]; rewrite Z.eqb_refl; reflexivity|].
      exact IH.
    - destruct (g k); [cbn [aget]; rewrite E|]; exact IH.
  Qed.

  Lemma aget_adel_range a b m v :
    aget v (adel_range a b m) = if (a <=? v) && (v <=? b) then None else aget v m.
  Proof.
    unfold adel_range. rewrite (aget_filter_key (fun k => negb ((a <=? k) && (k <=? b)))).
    destruct (_ && _); reflexivity.
  Qed.
End Amap.

Lemma aget_aset_same : forall (m : list (Z * partial)) v p, aget v (aset v p m) = Some p.
Proof. intros. rewrite aget_aset, Z.eqb_refl. reflexivity. Qed.

Lemma keys_sorted_cons lo k (w : partial) m :
  keys_sorted lo ((k, w) :: m) = true <-> lo <= k /\ keys_sorted (k + 1) m = true.
Proof. apply andb_iff; [apply Z.leb_le|reflexivity]. Qed.

Lemma keys_sorted_weaken lo lo' (m : list (Z * partial)) :
  lo' <= lo -> keys_sorted lo m = true -> keys_sorted lo' m = true.
Proof. destruct m as [|[k w] m]; [reflexivity|]. rewrite !keys_sorted_cons. intros H [H1 H2]. split; [lia|exact H2]. Qed.

Lemma keys_sorted_filter f : forall (m : list (Z * partial)) lo,
  keys_sorted lo m = true -> keys_sorted lo (filter f m) = true.
Proof.
  induction m as [|[k w] m IH]; intros lo H; [reflexivity|].
  apply keys_sorted_cons in H as [H1 H2]. cbn [filter]. destruct (f (k, w)).
  - apply keys_sorted_cons. auto.
  - apply (keys_sorted_weaken (k + 1)); [lia|auto].
Qed.

Lemma keys_sorted_nodup : forall (m : list (Z * partial)) lo, keys_sorted lo m = true ->
  NoDup (map fst m) /\ forall k, In k (map fst m) -> lo <= k.
Proof.
  induction m as [|[k p] t IH]; intros lo H; [split; [constructor|intros k []]|].
  apply keys_sorted_cons in H as [H1 H2]. destruct (IH (k + 1) H2) as [Hnd Hlow]. split.
  - constructor; [|exact Hnd]. intros Hin. specialize (Hlow k Hin). lia.
  - intros k0 [<-|Hin]; [exact H1|]. specialize (Hlow k0 Hin). lia.
Qed.

Lemma keys_sorted_lower (m : list (Z * partial)) lo v p :
  keys_sorted lo m = true -> aget v m = Some p -> lo <= v.
Proof. intros H Hg. apply (proj2 (keys_sorted_nodup m lo H)). exact (in_map fst m (v, p) (aget_In m v p Hg)). Qed.

Lemma keys_sorted_aset : forall (m : list (Z * partial)) lo v p,
  keys_sorted lo m = true -> lo <= v -> keys_sorted lo (aset v p m) = true.
Proof.
  induction m as [|[k w] m IH]; intros lo v p H Hv; [apply keys_sorted_cons; auto|].
  apply keys_sorted_cons in H as [H1 H2]. cbn [aset].
  destruct (v =? k) eqn:E1; [|destruct (v <? k) eqn:E2]; zb; rewrite !keys_sorted_cons.
  - subst. auto.
  - split; [lia|]. split; [lia|exact H2].
  - split; [lia|]. apply IH; [exact H2|lia].
Qed.

(* sortedness is needed: were the first entry of v filtered out of an unsorted m, a later entry
   of v would be found in its place *)
Lemma aget_filter_map {B} (g : Z * partial -> bool) (f : Z * partial -> B) :
  forall (m : list (Z * partial)) lo v,
  keys_sorted lo m = true ->
  aget v (map (fun kv => (fst kv, f kv)) (filter g m)) =
  match aget v m with
  | Some p => if g (v, p) then Some (f (v, p)) else None
  | None => None
  end.
Proof.
  induction m as [|[k w] m IH]; intros lo v H; [reflexivity|].
  apply keys_sorted_cons in H as [H1 H2]. cbn [filter aget].
  destruct (v =? k) eqn:E.
  - zb. subst k. destruct (g (v, w)).
    + cbn. rewrite Z.eqb_refl. reflexivity.
    + rewrite (IH (v + 1) v H2).
      destruct (aget v m) as [p'|] eqn:Eget; [|reflexivity].
      apply (keys_sorted_lower _ _ _ _ H2) in Eget. lia.
  - destruct (g (k, w)); [cbn; rewrite E|]; apply (IH (k + 1) v H2).
Qed.

(* DELETE of a listed range is rem, INSERT of a range apart from the rest is ins. *)

Definition row_del (r : Z * Z) (s : iset) : iset := filter (fun x => negb (pair_eqb r x)) s.

Lemma row_del_In r s t : In t (row_del r s) <-> In t s /\ r <> t.
Proof. unfold row_del. etransitivity; [apply filter_In|]. apply and_iff_compat_l, negb_iff, pair_eqb_eq. Qed.

(* removing one whole range: both sides are canonical with the same members *)
Lemma rem_exact s a b : canonical s -> In (a, b) s -> rem a b s = row_del (a, b) s.
Proof.
  intros [lo Hc] Hin. destruct (canon_In_ok _ _ _ Hc Hin) as [Hab _].
  apply (canon_ext _ _ lo lo); [apply rem_canon; assumption|apply canon_filter; exact Hc|].
  intros x. rewrite (rem_mem _ _ _ _ _ Hab Hc). split.
  - intros [Hm Hn]. apply mem_In in Hm as (t & Ht & Hx). apply (In_mem t); [|exact Hx].
    apply row_del_In. split; [exact Ht|]. intros <-. exact (Hn Hx).
  - intros Hm. apply mem_In in Hm as (t & Ht & Hx). apply row_del_In in Ht as [Ht Hne].
    split; [exact (In_mem t s x Ht Hx)|]. intros Hx'. apply Hne.
    exact (canon_In_unique s lo _ _ x Hc Hin Ht Hx' Hx).
Qed.

Lemma filter_count_one : forall s r, NoDup s -> In r s -> length (filter (pair_eqb r) s) = 1%nat.
Proof.
  induction s as [|x s IH]; intros r Hnd Hin; [destruct Hin|].
  apply NoDup_cons_iff in Hnd as [Hx Hnd]. cbn [filter].
  destruct (pair_eqb r x) eqn:E.
  - apply pair_eqb_eq in E. subst x. rewrite (proj2 (filter_nil (pair_eqb r) s)); [reflexivity|].
    intros y Hy. apply pair_eqb_neq. intros <-. exact (Hx Hy).
  - apply pair_eqb_neq in E. destruct Hin as [->|Hin]; [contradiction|]. apply IH; assumption.
Qed.

(* In this and the two folds below the casts to [rows] give the pairs the types they have in
   the model; without them [rewrite] finds no matching subterm. *)
Lemma idb_remove_exact (s : iset) p bad r : canonical s -> In r s ->
  idb_remove (s, p, (s : rows), bad) r =
  (rem (fst r) (snd r) s, adel_range (fst r) (snd r) p, (rem (fst r) (snd r) s : rows), bad).
Proof.
  intros Hc Hin. unfold idb_remove, row_delete. destruct r as [a b]. cbn [fst snd].
  rewrite (rem_exact s a b Hc Hin). destruct Hc as [lo Hc].
  rewrite (filter_count_one s _ (canon_NoDup _ _ Hc) Hin), orb_false_r. reflexivity.
Qed.

Definition apart (s1 s2 : iset) : Prop := forall x y, mem x s1 -> mem y s2 -> ~ (x - 1 <= y <= x + 1).

(* the case of SeqRowsProofs.ins_hit_row_insert in which no range is hit *)
Lemma ins_row_insert s a b : canonical s -> a <= b -> apart [(a, b)] s ->
  row_insert (a, b) s = Some (ins a b s).
Proof.
  intros [lo Hc] Hab Hap.
  destruct (ins_hit_row_insert (fun _ => false) s lo a b Hc Hab) as (a' & b' & Hi & _ & _ & Hr).
  - intros p Hp. split; [discriminate|]. intros [H1 H2]. destruct (canon_In_ok _ _ _ Hc Hp) as [Hp' _].
    (* p meets [a-1,b+1], in y say, which is within distance 1 of a point of [a,b] *)
    set (y := Z.max (fst p) (a - 1)).
    destruct (Hap (Z.max a (Z.min y b)) y); [cbn; lia|apply (In_mem p); [exact Hp|lia]|lia].
  - rewrite (proj2 (filter_nil _ s)) in Hi by reflexivity. injection Hi as <- <-.
    rewrite filter_all in Hr by reflexivity. exact Hr.
Qed.

(* a range of ia is apart from n and, ia being canonical, from the ranges of ia inserted before
   it: every INSERT is an ins that hits no row *)
Lemma insert_fold_ok : forall ia (n : iset),
  canonical n -> canonical ia -> apart ia n ->
  fold_left idb_insert ia (Some (n, (n : rows))) = Some (ins_all ia n, (ins_all ia n : rows)).
Proof.
  induction ia as [|[a b] ia IH]; intros n Hn [lo Hia] Hap; [reflexivity|].
  destruct Hia as (H1 & H2 & H3).
  cbn [fold_left idb_insert fst snd].
  rewrite (ins_row_insert n a b Hn H2).
  - apply IH; [apply ins_canonical; assumption|exists (b + 2); exact H3|].
    intros x y Hx Hy. apply (ins_mem _ _ _ _ H2) in Hy as [Hy|Hy].
    + pose proof (canon_from_lower _ _ _ H3 Hx). lia.
    + apply (Hap x y); [right; exact Hx|exact Hy].
  - intros x y [Hx|[]] Hy. apply (Hap x y); [left; exact Hx|exact Hy].
Qed.

(* every DELETE takes one whole range out (rem_exact), with the partials inside it, and the
   rows still to delete are ranges of what is left *)
Lemma remove_fold_ok : forall rr (N : iset) p,
  canonical N -> NoDup rr -> incl rr N ->
  exists p1,
    fold_left idb_remove rr (N, p, (N : rows), false) =
    (rem_all rr N, p1, (rem_all rr N : rows), false) /\
    (forall v q, aget v p1 = Some q -> aget v p = Some q) /\
    (forall l, keys_sorted l p = true -> keys_sorted l p1 = true).
Proof.
  induction rr as [|[a b] rr IH]; intros N p Hc Hnd Hsub.
  - exists p. auto.
  - apply NoDup_cons_iff in Hnd as [Hr Hnd].
    pose proof (Hsub _ (or_introl eq_refl)) as HrN.
    cbn [fold_left rem_all]. rewrite (idb_remove_exact N p false _ Hc HrN).
    destruct (IH (rem a b N) (adel_range a b p)) as (p1 & Hf & Hp1 & Hk1).
    { apply rem_canonical; [exact (canonical_In_ok N _ Hc HrN)|exact Hc]. }
    { exact Hnd. }
    { intros t Ht. rewrite (rem_exact N a b Hc HrN). apply row_del_In. split; [apply Hsub; right; exact Ht|]. intros <-. exact (Hr Ht). }
    exists p1. split; [exact Hf|]. split.
    + intros v q Hq. apply Hp1 in Hq. rewrite aget_adel_range in Hq.
      destruct (_ && _); [discriminate|exact Hq].
    + intros l Hl. apply Hk1, keys_sorted_filter, Hl.
Qed.

Section Gaps.
  Variable b : bv.
  Let N := needed b.
  Let M := max0 (maxv b).
  Hypothesis HcN : canonical N.

  (* x lies in the gap that version v opens beyond the head M: M+1 ..= fst v, the start of v
     included (compute_gaps_change inserts the gap up to the start and takes vs out afterwards) *)
  Definition gapx (x : Z) (v : Z * Z) : Prop := M + 1 < fst v /\ M + 1 <= x <= fst v.

  (* What the accumulator holds: the rows to delete are ranges of N, each listed once, and
     the set to insert is their union with the gap ranges G opened so far.  Which ranges
     of N are listed matters only in so far as every one meeting an inserted version is
     (GInv): a range that is deleted needlessly is inserted again. *)
  Definition AInv (G : Z -> Prop) (a : acc) : Prop :=
    canonical (fst a) /\ NoDup (snd a) /\ incl (snd a) N /\
    forall x, mem x (fst a) <-> mem x (snd a) \/ G x.

  Lemma AInv_ext G G' a : (forall x, G x <-> G' x) -> AInv G a -> AInv G' a.
  Proof.
    intros HG (H1 & H2 & H3 & H4). split; [|split; [|split]]; try assumption.
    intros x. rewrite H4, HG. reflexivity.
  Qed.

  Lemma add_range_In a t u : t = u \/ In u (snd a) -> In u (snd (add_range a t)).
  Proof.
    unfold add_range. cbn [snd]. destruct (existsb _ _) eqn:E; [|rewrite in_app_iff; cbn; intros [H|H]; auto].
    apply existsb_pair in E. intros [<-|H]; assumption.
  Qed.

  Lemma add_ranges_In ts : forall a u, In u ts \/ In u (snd a) -> In u (snd (add_ranges ts a)).
  Proof.
    induction ts as [|t ts IH]; intros a u Hu; [destruct Hu as [[]|H]; exact H|].
    apply IH. pose proof (add_range_In a t u). destruct Hu as [[Hu|Hu]|Hu]; auto.
  Qed.

  Lemma add_range_inv G a t : In t N -> AInv G a -> AInv G (add_range a t).
  Proof.
    destruct a as [i r]. unfold AInv, add_range. cbn [fst snd]. intros Ht (Hc & Hnd & Hsub & Hi).
    pose proof (canonical_In_ok N t HcN Ht) as Hok.
    split; [apply ins_canonical; assumption|].
    destruct (existsb (pair_eqb t) r) eqn:E.
    - apply existsb_pair in E. split; [exact Hnd|]. split; [exact Hsub|].
      intros x. rewrite (ins_mem _ _ _ _ Hok), Hi. pose proof (In_mem t r x E) as Hm.
      split; [intros [H|H]|]; auto.
    - split; [|split].
      + apply NoDup_snoc; [exact Hnd|]. rewrite <- existsb_pair, E. discriminate.
      + exact (incl_app Hsub (incl_cons Ht (incl_nil_l N))).
      + intros x. rewrite (ins_mem _ _ _ _ Hok), Hi, mem_app. destruct t. cbn.
        split; [intros [H|[H|H]]|intros [[H|[H|[]]]|H]]; auto.
  Qed.

  Lemma add_ranges_inv G ts a : incl ts N -> AInv G a -> AInv G (add_ranges ts a).
  Proof. intros Hts. apply fold_left_inv. intros a' t Ht. apply add_range_inv, Hts, Ht. Qed.

  Lemma add_ranges_app l1 l2 a : add_ranges l2 (add_ranges l1 a) = add_ranges (l1 ++ l2) a.
  Proof. symmetry. apply fold_left_app. Qed.

  Lemma AInv_ins G a lo hi : lo <= hi -> AInv G a ->
    AInv (fun x => G x \/ lo <= x <= hi) (ins lo hi (fst a), snd a).
  Proof.
    intros Hl (Hc & Hnd & Hsub & Hi). split; [|split; [|split]]; cbn [fst snd]; try assumption.
    - apply ins_canonical; assumption.
    - intros x. etransitivity; [apply ins_mem, Hl|]. rewrite Hi. rewrite or_swap. apply or_iff_compat_l, or_comm.
  Qed.

  (* What one version s..e does to the accumulator: the ranges of N that it meets or touches
     are listed (whatever the accumulator holds), and if it lies beyond the head the gap up to
     it is opened. *)
  Lemma gaps_step_In mx a s e t : In t (snd a) \/ In t (overlapping s e N) ->
    In t (snd (snd (gaps_step b (mx, a) (s, e)))).
  Proof.
    intros Ht. cbn [gaps_step snd]. rewrite !add_ranges_app. destruct (_ <? s).
    - apply add_ranges_In. right. cbn [snd]. apply add_ranges_In. rewrite in_app_iff. destruct Ht; auto.
    - apply add_ranges_In. rewrite in_app_iff. destruct Ht; auto.
  Qed.

  Lemma gaps_acc_inv G mx a s e : AInv G a ->
    AInv (fun x => G x \/ gapx x (s, e)) (snd (gaps_step b (mx, a) (s, e))).
  Proof.
    intros Ha. unfold gapx. cbn [gaps_step fst snd]. fold N M. rewrite !add_ranges_app.
    pose proof (add_ranges_inv _ _ a (incl_app (overlapping_incl s e N)
                  (incl_app (get_incl (s - 1) N) (get_incl (e + 1) N))) Ha) as Ha3.
    destruct (Z.ltb_spec (M + 1) s) as [Hg|Hg].
    - (* the gap range M+1 ..= s is opened *)
      generalize (add_ranges_inv _ _ _ (overlapping_incl (M + 1) s N) (AInv_ins G _ (M + 1) s ltac:(lia) Ha3)).
      apply AInv_ext. intros x. apply or_iff_compat_l. lia.
    - revert Ha3. apply AInv_ext. intros x. split; [left; assumption|intros [H|H]; [exact H|lia]].
  Qed.

  (* the state of the fold in compute_gaps_change after the versions h: the accumulator lists
     every range of N that meets one of them, and the new head is the least upper bound of the old
     one and their ends *)
  Definition GInv (h : list (Z * Z)) (st : option Z * acc) : Prop :=
    AInv (fun x => Exists (gapx x) h) (snd st) /\
    (forall t v, In t N -> In v h -> fst t <= snd v -> fst v <= snd t -> In t (snd (snd st))) /\
    forall z, max0 (fst st) <= z <-> M <= z /\ Forall (fun v => snd v <= z) h.

  Lemma GInv_init : GInv [] (maxv b, ([], [])).
  Proof.
    split; [|split]; cbn [fst snd].
    - split; [apply canonical_nil|]. split; [constructor|]. split; [intros t []|].
      intros x. rewrite Exists_nil. tauto.
    - intros t v _ [].
    - intros z. rewrite Forall_nil_iff. tauto.
  Qed.

  Lemma gaps_step_inv h st v : 1 <= fst v <= snd v -> GInv h st -> GInv (h ++ [v]) (gaps_step b st v).
  Proof.
    destruct st as [mx a], v as [s e]. cbn [fst snd]. intros Hse (Ha & Hov & Hmax).
    split; [|split].
    - generalize (gaps_acc_inv _ mx a s e Ha). apply AInv_ext.
      intros x. rewrite Exists_app, Exists_cons, Exists_nil.
      clear. (* tauto is slow under the section's context *) tauto.
    - intros t v Ht Hv H1 H2. apply gaps_step_In. apply in_snoc in Hv as [Hv| ->].
      + left. exact (Hov t v Ht Hv H1 H2).
      + right. apply overlapping_In. auto.
    - intros z. cbn [gaps_step fst].
      rewrite max0_omax, Z.max_lub_iff, Hmax, Forall_app, Forall_cons_iff, Forall_nil_iff by lia.
      clear. tauto.
  Qed.

  (* r: the rows to delete; ia: the set to insert, vs taken out already; mx: the new head *)
  Lemma compute_gaps_change_ok vs : Forall (fun v => 1 <= fst v <= snd v) vs ->
    let '(mx, ia, r) := compute_gaps_change b vs in
    NoDup r /\ incl r N /\ canonical ia /\
    (forall x, mem x ia <-> (mem x r \/ exists v, In v vs /\ gapx x v) /\ ~ mem x vs) /\
    (forall x, mem x N -> mem x vs -> mem x r) /\
    forall z, max0 mx <= z <-> M <= z /\ forall v, In v vs -> snd v <= z.
  Proof.
    intros Hvs. assert (Hok : ranges_ok vs) by (eapply Forall_impl; [|exact Hvs]; cbn; lia).
    pose proof (fold_left_hist GInv (gaps_step b) vs
                  (fun h st v Hv => gaps_step_inv h st v (proj1 (Forall_forall _ _) Hvs v Hv))
                  [] (maxv b, ([], [])) GInv_init) as HG.
    unfold compute_gaps_change.
    destruct (fold_left (gaps_step b) vs (maxv b, ([], []))) as [mx [i r]].
    destruct HG as ((Hci & Hnd & HrN & Hi) & Hov & Hmax).
    split; [exact Hnd|]. split; [exact HrN|]. split; [apply rem_all_canonical; assumption|].
    split; [|split].
    - intros x. rewrite (rem_all_mem vs i x Hok Hci), Hi, Exists_exists. reflexivity.
    - intros x HxN Hxv. apply mem_In in HxN as (t & Ht & Hxt). apply mem_In in Hxv as (v & Hv & Hxv).
      apply (In_mem t); [apply (Hov t v); auto; lia|exact Hxt].
    - intros z. rewrite Hmax, Forall_forall. reflexivity.
  Qed.
End Gaps.

Record Inv (b : bv) (rs : rows) : Prop := mkInv {
  inv_canon : canonical (needed b);
  inv_rows : rs = needed b;
  inv_max : 0 <= max0 (maxv b);
  inv_range : forall x, mem x (needed b) -> 1 <= x < max0 (maxv b);
  inv_part : forall v p, aget v (partials b) = Some p ->
             1 <= v <= max0 (maxv b) /\ ~ mem v (needed b);
  inv_keys : keys_sorted 1 (partials b) = true }.

(* vs need not be canonical: any list of non-empty ranges of versions >= 1 will do *)
Theorem insert_db_ok b rs vs : Inv b rs -> Forall (fun v => 1 <= fst v <= snd v) vs ->
  exists b',
    insert_db b rs vs = IdbOk b' (needed b') false /\
    Inv b' (needed b') /\
    (forall x, mem x (needed b') <->
               (mem x (needed b) \/ exists v, In v vs /\ gapx b x v) /\ ~ mem x vs) /\
    max0 (maxv b) <= max0 (maxv b') /\
    (forall v, In v vs -> snd v <= max0 (maxv b')) /\
    (forall v p, aget v (partials b') = Some p -> aget v (partials b) = Some p) /\
    (forall z, max0 (maxv b) <= z -> (forall v, In v vs -> snd v <= z) -> max0 (maxv b') <= z).
Proof.
  intros [HcN -> HM Hrange Hpart Hkeys] Hvs.
  pose proof (compute_gaps_change_ok b HcN vs Hvs) as HG. unfold insert_db.
  destruct (compute_gaps_change b vs) as [[mx ia] r].
  destruct HG as (Hnd & HrN & HcI & Hi & Hov & Hmax).
  destruct (proj1 (Hmax _) (Z.le_refl _)) as [Hm1 Hm2].
  set (N := needed b) in *.
  (* the rows of r are deleted: n1 is what is left of N *)
  pose proof (incl_Forall HrN (canonical_ranges_ok N HcN)) as Hokr.
  pose proof (fun x => rem_all_mem r N x Hokr HcN) as Hn1.
  pose proof (rem_all_canonical r N Hokr HcN) as Hcn1.
  destruct (remove_fold_ok r N (partials b) HcN Hnd HrN) as (p1 & -> & Hp1 & Hks1).
  set (n1 := rem_all r N) in *.
  (* what is inserted lies in ranges of N that were deleted, or at max+1 and above: either way at
     distance 2 or more from what is left *)
  assert (Hap : apart ia n1).
  { intros x y Hx Hy Hxy. apply Hn1 in Hy as [HyN Hyr]. apply Hi in Hx as [[Hx|(v & _ & _ & Hg)] _].
    - apply mem_In in Hx as (w & Hw & Hxw). apply mem_In in HyN as (u & Hu & Hyu). apply Hyr, (In_mem u); [|exact Hyu].
      destruct HcN as [lo HcN].
      rewrite <- (canon_In_near N lo w u x y HcN (HrN w Hw) Hu Hxw Hyu Hxy). exact Hw.
    - apply Hrange in HyN. lia. }
  rewrite (insert_fold_ok ia n1 Hcn1 HcI Hap).
  set (n2 := ins_all ia n1).
  assert (Hspec : forall x, mem x n2 <-> (mem x N \/ exists v, In v vs /\ gapx b x v) /\ ~ mem x vs).
  { intros x. unfold n2. rewrite (ins_all_mem ia n1 x (canonical_ranges_ok _ HcI)), Hi, Hn1.
    pose proof (mem_incl x r N HrN) as Hsub. specialize (Hov x). split.
    - intros [[[Hr|He] Hv]|[Hn Hr]]; [auto|auto|].
      (* x is in N and not in r, which lists every range of N that meets an inserted version
         (Hov): so x is in none *)
      split; [left; exact Hn|]. intros Hv. exact (Hr (Hov Hn Hv)).
    - intros [[Hn|He] Hv]; [destruct (mem_dec x r)|]; auto. }
  assert (HI' : Inv (mkBv n2 p1 mx) n2).
  { constructor; cbn [needed partials maxv].
    - apply ins_all_canonical; [apply canonical_ranges_ok, HcI|exact Hcn1].
    - reflexivity.
    - lia.
    - intros x Hx. apply Hspec in Hx as [[Hx|(v & Hv & Hg)] Hnv].
      + apply Hrange in Hx. lia.
      + (* x is in the gap max+1 ..= fst v but is not fst v, which was inserted *)
        rewrite Forall_forall in Hvs. specialize (Hvs v Hv). specialize (Hm2 v Hv).
        assert (x <> fst v) by (intros ->; apply Hnv; eapply In_mem; [exact Hv|lia]).
        unfold gapx in Hg. lia.
    - intros v q Hq. apply Hp1, Hpart in Hq as [Hv Hn]. split; [lia|]. intros Hm.
      apply Hspec in Hm as [[Hm|(w & _ & Hg)] _]; [exact (Hn Hm)|]. unfold gapx in Hg. lia.
    - apply Hks1, Hkeys. }
  exists (mkBv n2 p1 mx).
  refine (conj eq_refl (conj HI' (conj Hspec (conj Hm1 (conj Hm2 (conj Hp1 _)))))).
  intros z Hz Hall. apply Hmax. auto.
Qed.

Definition wf_vs (vs : iset) : Prop := canonical vs /\ Forall (fun v => 1 <= fst v) vs.

Lemma wf_vs_ranges vs : wf_vs vs -> Forall (fun v => 1 <= fst v <= snd v) vs.
Proof.
  intros [Hc H1]. rewrite Forall_forall in *. intros v Hv. split; [apply H1, Hv|].
  eapply canonical_In_ok; eassumption.
Qed.

Lemma wf_vs_norm raw : Forall (fun r => 1 <= fst r <= snd r) raw -> wf_vs (ins_all raw []).
Proof.
  intros Hraw. assert (Hok : ranges_ok raw) by (eapply Forall_impl; [|exact Hraw]; cbn; lia).
  pose proof (norm_canonical raw Hok) as Hc. split; [exact Hc|]. apply Forall_forall. intros t Ht.
  (* fst t is a member of the normalised set, so of some range of raw *)
  assert (Hm : mem (fst t) (norm raw))
    by (eapply In_mem; [exact Ht|]; pose proof (canonical_In_ok _ t Hc Ht); lia).
  apply (norm_mem raw _ Hok), mem_In in Hm as (r & Hr & Hx).
  rewrite Forall_forall in Hraw. specialize (Hraw r Hr). lia.
Qed.

Lemma insert_one_ok b rs v : Inv b rs -> 1 <= v ->
  exists b',
    insert_db b rs [(v, v)] = IdbOk b' (needed b') false /\ Inv b' (needed b') /\
    max0 (maxv b') = Z.max (max0 (maxv b)) v /\
    (forall x, mem x (needed b') <-> (mem x (needed b) \/ max0 (maxv b) < x < v) /\ x <> v) /\
    (forall u p, aget u (partials b') = Some p -> aget u (partials b) = Some p).
Proof.
  intros HI Hv.
  assert (Hvs : Forall (fun w => 1 <= fst w <= snd w) [(v, v)]) by (repeat constructor; cbn; lia).
  destruct (insert_db_ok b rs _ HI Hvs) as (b' & Heq & HI' & Hspec & Hm1 & Hm2 & Hp & Hm4).
  exists b'. split; [exact Heq|]. split; [exact HI'|]. split; [|split; [|exact Hp]].
  - specialize (Hm2 (v, v) (or_introl eq_refl)). cbn in Hm2.
    assert (max0 (maxv b') <= Z.max (max0 (maxv b)) v); [|lia].
    apply Hm4; [lia|]. intros w [<-|[]]. cbn. lia.
  - (* the only gap [(v, v)] can open is max+1 ..= v *)
    intros x. rewrite Hspec. unfold gapx. cbn [mem]. split.
    + intros [[Hm|(w & [<-|[]] & Hg)] Hn]; (split; [|lia]); [left; exact Hm|right; cbn in Hg; lia].
    + intros [[Hm|Hx] Hn]; (split; [|lia]); [left; exact Hm|right].
      exists (v, v). cbn. split; [left; reflexivity|lia].
Qed.

Lemma insert_partial_needed b v p : needed (fst (insert_partial b v p)) = needed b.
Proof. unfold insert_partial. destruct (aget v (partials b)); reflexivity. Qed.

Lemma insert_partial_keys b v p u q :
  aget u (partials (fst (insert_partial b v p))) = Some q -> u = v \/ aget u (partials b) = Some q.
Proof.
  unfold insert_partial. destruct (aget v (partials b)); cbn [fst partials];
    rewrite aget_aset; (destruct (u =? v) eqn:E; zb; [left; exact E|right; assumption]).
Qed.

Lemma insert_partial_max b rs v p : Inv b rs -> 1 <= v ->
  max0 (maxv (fst (insert_partial b v p))) = Z.max (max0 (maxv b)) v.
Proof.
  intros HI Hv. unfold insert_partial. destruct (aget v (partials b)) eqn:E; cbn [fst maxv].
  - apply (inv_part _ _ HI) in E. lia.
  - apply max0_omax. lia.
Qed.

(* v may lie beyond the head, which then moves up to it (from_conn) *)
Lemma insert_partial_inv b rs v p :
  Inv b rs -> 1 <= v -> ~ mem v (needed b) -> Inv (fst (insert_partial b v p)) rs.
Proof.
  intros HI Hv Hnm. pose proof HI as [HcN Hrows HM Hrange Hpart Hkeys].
  constructor; rewrite ?insert_partial_needed, ?(insert_partial_max b rs v p HI Hv); try assumption.
  - lia.
  - intros x Hx. apply Hrange in Hx. lia.
  - intros u q Hq. apply insert_partial_keys in Hq as [->|Hq]; [split; [lia|exact Hnm]|].
    apply Hpart in Hq. split; [lia|tauto].
  - unfold insert_partial. destruct (aget v (partials b)); cbn [fst partials];
      (apply keys_sorted_aset; [exact Hkeys|lia]).
Qed.

Lemma Inv_empty mx : 0 <= max0 mx -> Inv (mkBv [] [] mx) [].
Proof.
  intros Hmx. constructor; cbn; [apply canonical_nil|reflexivity|exact Hmx|intros x []|discriminate|reflexivity].
Qed.

Lemma Inv_init : Inv bv_empty [].
Proof. apply Inv_empty. cbn. lia. Qed.

(* OpReload => False: a reload is not a step of the histories; it is taken once, at the end
   (DurProofs.crash_anywhere_restart_inv) *)
Definition op_ok (op : bop) : Prop :=
  match op with
  | OpInsert raw => Forall (fun r => 1 <= fst r <= snd r) raw
  | OpPartial v s e last => 1 <= v /\ 0 <= s <= e
  | OpReload => False
  end.

Definition out_fine (o : bout) : Prop :=
  match o with OutIdbErr | OutBadDelete => False | _ => True end.

Lemma contains_version_iff b v :
  contains_version b v = true <-> ~ mem v (needed b) /\ v <= max0 (maxv b).
Proof.
  unfold contains_version.
  apply andb_iff; [apply negb_iff, memb_iff|apply Z.leb_le].
Qed.

Lemma classify_spec b v :
  match classify b v with
  | Needed => mem v (needed b)
  | Beyond => ~ mem v (needed b) /\ max0 (maxv b) < v
  | Held => ~ mem v (needed b) /\ v <= max0 (maxv b) /\
            forall p, aget v (partials b) = Some p -> fully_buffered p = true
  | PartialC => ~ mem v (needed b) /\ v <= max0 (maxv b) /\
                exists p, aget v (partials b) = Some p /\ fully_buffered p = false
  end.
Proof.
  unfold classify. destruct (memb v (needed b)) eqn:E1; [apply memb_iff, E1|].
  assert (~ mem v (needed b)) by (rewrite <- memb_iff, E1; discriminate).
  destruct (v <=? max0 (maxv b)) eqn:E2; zb; cbn [negb]; [|auto].
  destruct (aget v (partials b)) as [p|]; [destruct (fully_buffered p) eqn:Ef|].
  - split; [assumption|]. split; [assumption|]. intros p' [= <-]. exact Ef.
  - split; [assumption|]. split; [assumption|]. exists p. auto.
  - split; [assumption|]. split; [assumption|]. discriminate.
Qed.

(* PartialVersion::full_range starts at seq 0 (Gen/Consts.v, regenerated from agent.rs on every
   run); were it to start elsewhere, this is the proof that fails *)
Lemma is_complete_fully p : is_complete p = fully_buffered p.
Proof. reflexivity. Qed.

Lemma sync_partial b rs v a : Inv b rs -> sync_actor b = Some a ->
  aget v (a_partial a) =
  match aget v (partials b) with
  | Some p => if fully_buffered p then None else Some (gaps 0 (p_last p) (p_seqs p))
  | None => None
  end.
Proof.
  intros HI. unfold sync_actor. destruct (maxv b); [|discriminate]. intros [= <-]. cbn [a_partial].
  rewrite (aget_filter_map _ (fun kv => gaps 0 (p_last (snd kv)) (p_seqs (snd kv))) _ 1 v (inv_keys _ _ HI)).
  destruct (aget v (partials b)) as [p|]; [|reflexivity]. cbn [snd].
  rewrite is_complete_fully. destruct (fully_buffered p); reflexivity.
Qed.

Theorem adv_exact b rs v :
  Inv b rs -> 1 <= v ->
  adv_class (sync_actor b) v = classify b v /\
  (classify b v = PartialC ->
   exists p, aget v (partials b) = Some p /\
     exists a, sync_actor b = Some a /\
       aget v (a_partial a) = Some (gaps 0 (p_last p) (p_seqs p))).
Proof.
  intros HI Hv. pose proof (fun a => sync_partial b rs v a HI) as Hlook.
  assert (Hneed : memb v (needed b) = true -> v < max0 (maxv b))
    by (rewrite memb_iff; intros H; apply (inv_range _ _ HI), H).
  unfold classify, adv_class. unfold sync_actor in *.
  destruct (maxv b) as [head|]; cbn [max0] in *.
  - specialize (Hlook _ eq_refl). cbn [a_head a_need a_partial] in *. rewrite Hlook.
    destruct (v <=? head) eqn:E; zb; cbn [negb].
    + destruct (memb v (needed b)); [split; [reflexivity|discriminate]|].
      destruct (aget v (partials b)) as [p|]; [destruct (fully_buffered p)|];
        (split; [reflexivity|]); try discriminate.
      intros _. exists p. split; [reflexivity|]. eexists. split; [reflexivity|exact Hlook].
    + destruct (memb v (needed b)); [specialize (Hneed eq_refl); lia|]. split; [reflexivity|discriminate].
  - destruct (memb v (needed b)); [specialize (Hneed eq_refl); lia|].
    destruct (v <=? 0) eqn:E; zb; [lia|]. split; [reflexivity|discriminate].
Qed.

Lemma ranges_eqb_eq : forall x y, ranges_eqb x y = true -> x = y.
Proof. intros x y. apply (list_eqb_spec pair_eqb); [exact pair_eqb_eq|intros [|a x'] [|c y']; reflexivity]. Qed.

Lemma inv_b_sound b rs : inv_b b rs = true -> Inv b rs.
Proof.
  unfold inv_b.
  intros [[[[[Hcanon Hrows]%andb_prop Hmax]%andb_prop Hrange]%andb_prop Hpart]%andb_prop Hkeys]%andb_prop.
  constructor.
  - apply canonicalb_iff, Hcanon.
  - apply ranges_eqb_eq, Hrows.
  - zb. exact Hmax.
  - intros x Hx. apply mem_In in Hx. destruct Hx as (t & Ht & Hx).
    rewrite forallb_forall in Hrange. specialize (Hrange t Ht). apply andb_true_iff in Hrange as [A B]. zb. lia.
  - intros v p Hg. apply aget_In in Hg. rewrite forallb_forall in Hpart. specialize (Hpart _ Hg).
    unfold partial_ok in Hpart. cbn [fst snd] in Hpart.
    apply andb_prop in Hpart as [[[[Hlo Hhi]%andb_prop Hnm]%andb_prop _]%andb_prop _]. zb. split; [lia|].
    intros Hm. apply memb_iff in Hm. rewrite Hm in Hnm. discriminate.
  - exact Hkeys.
Qed.
