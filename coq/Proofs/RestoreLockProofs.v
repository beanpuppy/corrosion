From Coq Require Import List ZArith Bool.
From Corro Require Import Lib.ListFacts Model.RestoreLock.
Import ListNotations.
Open Scope Z_scope.

(* what Model's boolean `compat` tests, as a statement about entries; nothing here relates the two *)
Definition Compat (t : ltable) : Prop :=
  forall b o1 k1 o2 k2, In (b, o1, k1) t -> In (b, o2, k2) t -> o1 <> o2 -> conflicts k1 k2 = false.

Lemma unlock_incl t b o : incl (unlock t b o) t.
Proof. intros e H. apply filter_In in H. apply H. Qed.

Lemma others_survive_unlock t b w b0 o k0 : In (b0, o, k0) t -> o <> w -> In (b0, o, k0) (unlock t b w).
Proof.
  intros Hin Hne. apply filter_In. split; [exact Hin|]. cbn.
  destruct (Z.eqb_spec o w); [contradiction|]. rewrite andb_false_r. reflexivity.
Qed.

Lemma try_lock_granted t b o k t' : try_lock t b o k = Some t' ->
  t' = (b, o, k) :: unlock t b o /\
  forall o' k', In (b, o', k') t -> o' <> o -> conflicts k k' = false.
Proof.
  unfold try_lock. destruct (existsb (blocks b o k) t) eqn:Ex; [discriminate|]. intros H. injection H as <-.
  split; [reflexivity|]. intros o' k' Hi Hne.
  destruct (conflicts k k') eqn:E; [|reflexivity]. rewrite <- Ex. symmetry.
  apply existsb_exists. exists (b, o', k'). split; [exact Hi|]. cbn. rewrite Z.eqb_refl, E.
  destruct (Z.eqb_spec o' o); [contradiction|reflexivity].
Qed.

Lemma others_survive_try t b w k t' b0 o k0 :
  try_lock t b w k = Some t' -> In (b0, o, k0) t -> o <> w -> In (b0, o, k0) t'.
Proof.
  intros H Hin Hne. apply try_lock_granted in H as [-> _]. right. exact (others_survive_unlock _ _ _ _ _ _ Hin Hne).
Qed.

Lemma write_lock_needs_free t b w t' o k :
  try_lock t b w LWrite = Some t' -> In (b, o, k) t -> o = w.
Proof.
  intros H Hin. apply try_lock_granted in H as [_ H].
  apply Z.eq_dne. intros E. discriminate (H o k Hin E).
Qed.

Lemma unlock_compat t b o : Compat t -> Compat (unlock t b o).
Proof. intros Hc b0 o1 k1 o2 k2 H1 H2. exact (Hc b0 o1 k1 o2 k2 (unlock_incl _ _ _ _ H1) (unlock_incl _ _ _ _ H2)). Qed.

Lemma try_lock_compat t b o k t' : Compat t -> try_lock t b o k = Some t' -> Compat t'.
Proof.
  intros Hc H. apply try_lock_granted in H as [-> Hno].
  pose proof (unlock_incl t b o) as Hsub.
  intros b0 o1 k1 o2 k2 [H1|H1] [H2|H2] Hne.
  - congruence.
  - injection H1 as <- <- <-. apply (Hno o2 k2); [apply Hsub, H2|congruence].
  - injection H2 as <- <- <-. rewrite <- (Hno o1 k1 (Hsub _ H1) Hne).
    (* conflicts is symmetric *) destruct k, k1; reflexivity.
  - exact (unlock_compat t b o Hc b0 o1 k1 o2 k2 H1 H2 Hne).
Qed.

Theorem locks_always_compatible : forall ops t, Compat t -> Compat (fold_left lock_step ops t).
Proof.
  intros ops. apply fold_left_inv. intros t op _ Hc.
  destruct op as [b o k|b o]; cbn.
  - destruct (try_lock t b o k) as [t'|] eqn:E; [exact (try_lock_compat _ _ _ _ _ Hc E)|exact Hc].
  - apply unlock_compat. exact Hc.
Qed.

Theorem writer_excludes_everyone : forall ops b w o k,
  let t := fold_left lock_step ops [] in
  In (b, w, LWrite) t -> In (b, o, k) t -> o = w.
Proof.
  intros ops b w o k t Hw Ho.
  assert (Hc : Compat t) by (apply locks_always_compatible; intros ? ? ? ? ? []).
  apply Z.eq_dne. intros E.
  discriminate (Hc b w LWrite o k Hw Ho (fun H => E (eq_sym H))).
Qed.

(* another owner's entry survives every earlier call, so it is still there at the write lock,
   which would then have been refused *)
Theorem run_locks_excludes : forall calls t w t' b o k,
  run_locks t w calls = Some t' -> write_locks calls b = true -> In (b, o, k) t -> o = w.
Proof.
  induction calls as [|[kind b1] r IH]; intros t w t' b o k Hrun Hw Hin; [discriminate Hw|].
  destruct (Z.eq_dec o w) as [E|E]; [exact E|].
  unfold write_locks in Hw. cbn [existsb fst snd] in Hw. apply orb_true_iff in Hw.
  destruct kind; cbn [run_locks] in Hrun.
  - destruct (try_lock t b1 w LRead) as [t1|] eqn:E1; [|discriminate].
    destruct Hw as [Hw|Hw]; [discriminate Hw|].
    exact (IH t1 w t' b o k Hrun Hw (others_survive_try _ _ _ _ _ _ _ _ E1 Hin E)).
  - destruct (try_lock t b1 w LWrite) as [t1|] eqn:E1; [|discriminate].
    destruct Hw as [Hw|Hw].
    + apply Z.eqb_eq in Hw. subst b1. exact (write_lock_needs_free _ _ _ _ _ _ E1 Hin).
    + exact (IH t1 w t' b o k Hrun Hw (others_survive_try _ _ _ _ _ _ _ _ E1 Hin E)).
  - destruct Hw as [Hw|Hw]; [discriminate Hw|].
    exact (IH _ w t' b o k Hrun Hw (others_survive_unlock _ _ _ _ _ _ Hin E)).
Qed.
