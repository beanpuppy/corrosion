(* Row level: the state of one row after merging a list of records, in the order given, is
   described by ONE invariant over the list as a set (RowInv): the row belongs to a merged record
   that no merged record is above in the strict order sdom, and holds what that record wrote.
   The order-free specification (Model/CrdtSpec.v) reads its observable part off;
   Proofs/LiveProofs.v reads off which records still own a clock row. *)
From Coq Require Import List ZArith Bool Lia.
From Corro Require Import Lib.ListFacts Model.Crdt Model.CrdtSpec Model.Cluster Proofs.CrdtProofs.
Import ListNotations.
Open Scope Z_scope.

Lemma maxcl_cons r P : maxcl (r :: P) = Z.max (r_cl r) (maxcl P).
Proof. reflexivity. Qed.
Lemma maxcl_nil : maxcl [] = 0.
Proof. reflexivity. Qed.

Lemma maxcl_nonneg P : 0 <= maxcl P.
Proof. induction P as [|r P IH]; [rewrite maxcl_nil|rewrite maxcl_cons]; lia. Qed.

Lemma maxcl_snoc Q x : maxcl (Q ++ [x]) = Z.max (maxcl Q) (r_cl x).
Proof. induction Q as [|q Q IH]; cbn [app]; rewrite !maxcl_cons; [apply Z.max_comm|rewrite IH; apply Z.max_assoc]. Qed.

Lemma maxcl_ub P r : In r P -> r_cl r <= maxcl P.
Proof.
  induction P as [|a P IH]; [intros []|]. rewrite maxcl_cons.
  intros [->|H]; [lia|]. specialize (IH H). lia.
Qed.

Lemma maxcl_attained P : 0 < maxcl P -> exists r, In r P /\ r_cl r = maxcl P.
Proof.
  induction P as [|a P IH]; [rewrite maxcl_nil; lia|]. rewrite maxcl_cons.
  destruct (Z.max_spec (r_cl a) (maxcl P)) as [[Hlt ->]|[Hle ->]]; intros H0.
  - destruct (IH H0) as [r [Hin Hr]]. exists r. split; [right; exact Hin|exact Hr].
  - exists a. split; [left; reflexivity|reflexivity].
Qed.

Lemma maxcl_le P Q : (forall r, In r P -> exists r', In r' Q /\ r_cl r <= r_cl r') -> maxcl P <= maxcl Q.
Proof.
  induction P as [|a P IH]; intros H; [rewrite maxcl_nil; apply maxcl_nonneg|].
  rewrite maxcl_cons. apply Z.max_lub.
  - destruct (H a (or_introl eq_refl)) as [r' [Hin Hle]]. pose proof (maxcl_ub _ _ Hin). lia.
  - apply IH. intros r Hr. apply H. right. exact Hr.
Qed.

Lemma rec_ok_spec r : rec_ok r = true <-> 1 <= r_cl r /\ (r_sent r = false -> 1 <= r_colv r).
Proof.
  unfold rec_ok. etransitivity; [b2p|]. destruct (r_sent r); intuition discriminate.
Qed.

Lemma is_top_spec M r : is_top M r = true <-> r_sent r = false /\ r_cl r = M.
Proof. unfold is_top. etransitivity; [b2p|]. rewrite not_true_iff_false. reflexivity. Qed.

(* Two orders on value records: the specification compares (column version, value) (lexlt on
   rkey); cid_wins decides by (column version, value, site) (key3_lt).  The invariant needs the
   finer one; key3_le_lex brings its greatest element back to the specification's. *)
Lemma lexlt_spec a b : lexlt a b = true <-> fst a < fst b \/ (fst a = fst b /\ snd a < snd b).
Proof. unfold lexlt. b2p. Qed.

Lemma lexle_spec a b : lexlt a b = false <-> fst b < fst a \/ (fst b = fst a /\ snd b <= snd a).
Proof. rewrite <- not_true_iff_false, lexlt_spec. lia. Qed.

Lemma lexlt_irrefl a : lexlt a a = false.
Proof. apply lexle_spec. lia. Qed.

Lemma lexlt_total a b : lexlt a b = false -> lexlt b a = false -> a = b.
Proof. intros H1 H2. apply lexle_spec in H1, H2. destruct a, b. cbn in *. f_equal; lia. Qed.

Lemma lexle_trans a b c : lexlt b a = false -> lexlt c b = false -> lexlt c a = false.
Proof. intros H1 H2. apply lexle_spec in H1, H2. apply lexle_spec. lia. Qed.

Lemma key3_spec r r' : key3_lt r r' = true <->
  r_colv r < r_colv r' \/ (r_colv r = r_colv r' /\ (r_val r < r_val r' \/ (r_val r = r_val r' /\ r_site r < r_site r'))).
Proof.
  unfold key3_lt. b2p.
Qed.

Lemma key3_irrefl r : key3_lt r r = false.
Proof. apply not_true_iff_false. rewrite key3_spec. lia. Qed.

Lemma key3_le_lex r0 r : key3_lt r0 r = false -> lexlt (rkey r0) (rkey r) = false.
Proof. intros H. apply lexle_spec. apply not_true_iff_false in H. rewrite key3_spec in H. unfold rkey. cbn. lia. Qed.

Lemma cid_wins_key3 r0 x : cid_wins (Some (cell_of r0)) x = key3_lt r0 x.
Proof.
  unfold cid_wins, key3_lt. cbn. rewrite !Z.ltb_compare, !Z.eqb_compare.
  rewrite (Z.compare_antisym (r_colv r0)), (Z.compare_antisym (r_val r0)).
  destruct (r_colv r0 ?= r_colv x), (r_val r0 ?= r_val x); reflexivity.
Qed.

(* a value record wins against a cell that is absent or was zeroed by a re-insert marker *)
Lemma cid_wins_zeroed o x :
  match o with None => True | Some c => c_colv c = 0 end -> 1 <= r_colv x -> cid_wins o x = true.
Proof.
  intros Hz Hx. destruct o as [c|]; [|reflexivity]. unfold cid_wins. rewrite Hz.
  destruct (Z.ltb_spec 0 (r_colv x)); [reflexivity|lia].
Qed.

Lemma best_cons a D : best (a :: D) = match best D with None => Some (rkey a) | Some y => Some (lexmax (rkey a) y) end.
Proof. reflexivity. Qed.
Lemma best_nil : best [] = None.
Proof. reflexivity. Qed.

Lemma best_none D : best D = None <-> D = [].
Proof.
  destruct D as [|a D]; [rewrite best_nil; tauto|]. rewrite best_cons.
  destruct (best D); split; intros H; discriminate H.
Qed.

Lemma best_spec D m : best D = Some m ->
  (exists r, In r D /\ rkey r = m) /\ (forall r, In r D -> lexlt m (rkey r) = false).
Proof.
  revert m. induction D as [|a D IH]; [rewrite best_nil; discriminate|]. intros m. rewrite best_cons.
  destruct (best D) as [y|] eqn:Eb.
  - destruct (IH y eq_refl) as [[r0 [Hin0 Hk0]] Hmax]. intros H; injection H as <-.
    unfold lexmax. destruct (lexlt (rkey a) y) eqn:El.
    + split; [exists r0; split; [right; exact Hin0|exact Hk0]|].
      intros r [<-|Hr]; [apply lexle_spec; apply lexlt_spec in El; lia|apply Hmax, Hr].
    + split; [exists a; split; [left; reflexivity|reflexivity]|].
      intros r [<-|Hr]; [apply lexlt_irrefl|]. apply (lexle_trans _ y); [apply Hmax, Hr|exact El].
  - apply best_none in Eb. subst D. intros H; injection H as <-.
    split; [exists a; split; [left; reflexivity|reflexivity]|]. intros r [<-|[]]. apply lexlt_irrefl.
Qed.

Lemma best_max D r0 : In r0 D -> (forall r, In r D -> lexlt (rkey r0) (rkey r) = false) -> best D = Some (rkey r0).
Proof.
  intros H0 Hmax. destruct (best D) as [m|] eqn:E; [|apply best_none in E; subst D; destruct H0].
  apply best_spec in E. destruct E as [[r [Hr <-]] Hm]. f_equal. apply lexlt_total; [apply Hm, H0|apply Hmax, Hr].
Qed.

Lemma best_dominated D1 D2 :
  incl D2 D1 -> (forall r, In r D1 -> exists r', In r' D2 /\ lexlt (rkey r') (rkey r) = false) -> best D1 = best D2.
Proof.
  intros Hsub Hdom. destruct (best D2) as [m2|] eqn:E2.
  - apply best_spec in E2. destruct E2 as [[r2 [Hr2 <-]] Hm2]. apply best_max; [apply Hsub, Hr2|].
    intros r Hr. destruct (Hdom r Hr) as [r' [Hr' Hle]]. apply (lexle_trans _ (rkey r')); [exact Hle|apply Hm2, Hr'].
  - apply best_none in E2. subst D2. apply best_none.
    destruct D1 as [|p D1]; [reflexivity|]. destruct (Hdom p (or_introl eq_refl)) as [r' [[] _]].
Qed.

Lemma sdom_spec r r' : sdom r r' = true <->
  r_cl r < r_cl r' \/
  (r_cl r = r_cl r' /\ Z.odd (r_cl r) = true /\
   ((is_data r = false /\ is_data r' = true) \/ (is_data r = true /\ is_data r' = true /\ key3_lt r r' = true))).
Proof.
  unfold sdom. generalize (is_data r), (is_data r'), (key3_lt r r'). intros d d' k.
  rewrite <- !andb_assoc, <- (negb_true_iff d). b2p.
Qed.

Lemma sdom_cl r r' : r_cl r < r_cl r' -> sdom r r' = true.
Proof. intros H. apply sdom_spec. left. exact H. Qed.

Lemma sdom_irrefl r : sdom r r = false.
Proof.
  apply not_true_iff_false. rewrite sdom_spec. intros [E|[_ [_ [[E1 E2]|[_ [_ E]]]]]]; [lia|congruence|].
  rewrite key3_irrefl in E. discriminate.
Qed.

Lemma sdom_trans a b c : sdom a b = true -> sdom b c = true -> sdom a c = true.
Proof.
  intros H1 H2. apply sdom_spec in H1, H2. apply sdom_spec.
  destruct H1 as [H1|[H1 [O1 H1']]], H2 as [H2|[H2 [O2 H2']]]; [left; lia..|].
  right. split; [lia|]. split; [exact O1|].
  destruct H1' as [[A B]|[A [B K1]]], H2' as [[C D]|[C [D K2]]]; try congruence.
  - left. split; assumption.
  - right. split; [exact A|]. split; [exact D|]. apply key3_spec. apply key3_spec in K1, K2. lia.
Qed.

Lemma sdom_above a b c : sdom a b = true -> sdom a c = false -> sdom b c = false.
Proof.
  intros Hab Hac. destruct (sdom b c) eqn:E; [|reflexivity]. rewrite <- Hac. symmetry. exact (sdom_trans _ _ _ Hab E).
Qed.

Lemma sdom_level w r : r_cl w = r_cl r -> sdom w r = is_data r && (negb (is_data w) || key3_lt w r).
Proof.
  intros Hc. unfold sdom, is_data. rewrite Hc, Z.ltb_irrefl, Z.eqb_refl.
  destruct (Z.odd (r_cl r)), (r_sent w), (r_sent r); reflexivity.
Qed.

Lemma not_data r : Z.even (r_cl r) || r_sent r = negb (is_data r).
Proof. unfold is_data. rewrite <- Z.negb_even. destruct (Z.even (r_cl r)), (r_sent r); reflexivity. Qed.

(* what a row holds while it belongs to record w: a value record wrote the cell; a delete
   emptied it and left its clock on the sentinel; after a re-insert marker a cell kept from an
   older generation has column version 0 *)
Definition written (w : rec) (s : rowst) : Prop :=
  rw_cl s = r_cl w /\
  if is_data w then rw_col s = Some (cell_of w)
  else if Z.even (r_cl w) then rw_col s = None /\ rw_sent s = Some (rclk w)
  else match rw_col s with None => True | Some c => c_colv c = 0 end.

Definition RowInv (Q : list rec) (o : option rowst) : Prop :=
  match o with
  | None => Q = []
  | Some s => exists w, In w Q /\ (forall r, In r Q -> sdom w r = false) /\ written w s
  end.

Lemma fresh_written o x : written x (fresh_row o x).
Proof.
  split; [apply fresh_row_cl|]. unfold fresh_row.
  (* is_data x, said by the two tests that fresh_row branches on *)
  rewrite <- (negb_involutive (is_data x)), <- not_data.
  destruct (Z.even (r_cl x)); [split; reflexivity|]. destruct (r_sent x); cbn; [|reflexivity].
  destruct o as [s|]; [|exact I]. destruct (rw_col s); [reflexivity|exact I].
Qed.

Lemma cid_wins_sdom w s x :
  written w s -> r_cl w = r_cl x -> is_data x = true -> rec_ok x = true -> cid_wins (rw_col s) x = sdom w x.
Proof.
  intros [_ Hst] Hc Hd Hok. rewrite sdom_level, Hd by assumption.
  unfold is_data in Hd. apply andb_true_iff in Hd. destruct Hd as [Hs Ho].
  destruct (is_data w); cbn [negb orb andb].
  - rewrite Hst. apply cid_wins_key3.
  - rewrite <- Z.negb_odd, Hc, Ho in Hst. apply cid_wins_zeroed; [exact Hst|].
    apply rec_ok_spec in Hok. apply Hok, negb_true_iff, Hs.
Qed.

Lemma merge_owner w s x : written w s -> rec_ok x = true ->
  exists s', merge_row (Some s) x = Some s' /\ if sdom w x then written x s' else s' = s.
Proof.
  intros Hst Hok. pose proof Hst as [Hcl _].
  destruct (Z.lt_trichotomy (r_cl x) (r_cl w)) as [Hlt|[Hc|Hgt]].
  - exists s. split; [apply merge_row_below; cbn [local_cl]; lia|].
    destruct (sdom w x) eqn:E; [|reflexivity]. apply sdom_spec in E. lia.
  - rewrite merge_row_level by lia. eexists. split; [reflexivity|]. rewrite not_data.
    destruct (is_data x) eqn:Hd; cbn [negb].
    + rewrite (cid_wins_sdom w s x Hst) by auto. destruct (sdom w x); [|reflexivity].
      split; [cbn; lia|]. rewrite Hd. reflexivity.
    + rewrite sdom_level, Hd by lia. reflexivity.
  - rewrite merge_row_above, sdom_cl by (cbn [local_cl]; lia). eexists. split; [reflexivity|apply fresh_written].
Qed.

Lemma RowInv_step Q o x : RowInv Q o -> rec_ok x = true -> RowInv (Q ++ [x]) (merge_row o x).
Proof.
  intros HI Hok. destruct o as [s|]; cbn [RowInv] in HI.
  - destruct HI as [w [Hw [Hmax Hst]]]. destruct (merge_owner w s x Hst Hok) as [s' [-> H]].
    destruct (sdom w x) eqn:E.
    + (* nothing merged is above the owner, so nothing is above x *)
      exists x. split; [apply in_snoc; right; reflexivity|]. split; [|exact H].
      intros r Hr. apply in_snoc in Hr. destruct Hr as [Hr| ->]; [exact (sdom_above _ _ _ E (Hmax r Hr))|apply sdom_irrefl].
    + subst s'. exists w. split; [apply in_snoc; left; exact Hw|]. split; [|exact Hst].
      intros r Hr. apply in_snoc in Hr. destruct Hr as [Hr| ->]; [apply Hmax, Hr|exact E].
  - subst Q. apply rec_ok_spec in Hok. rewrite merge_row_above by (cbn [local_cl]; lia).
    exists x. split; [left; reflexivity|]. split; [|apply fresh_written]. intros r [<-|[]]. apply sdom_irrefl.
Qed.

Lemma RowInv_all Q : forallb rec_ok Q = true -> RowInv Q (fold_left merge_row Q None).
Proof.
  intros Hok. rewrite forallb_forall in Hok.
  apply (fold_left_hist RowInv merge_row Q) with (h := []); [|reflexivity].
  intros h o x Hx HI. apply RowInv_step; [exact HI|apply Hok, Hx].
Qed.

Lemma merged_cl Q : local_cl (fold_left merge_row Q None) = maxcl Q.
Proof.
  apply (fold_left_hist (fun h o => local_cl o = maxcl h) merge_row Q) with (h := []); [|symmetry; apply maxcl_nil].
  intros h o x _ IH. rewrite merge_row_cl, maxcl_snoc, IH. reflexivity.
Qed.

Theorem merge_rows_spec P :
  wf_row P = true -> option_map row_obs (fold_left merge_row P None) = row_spec P.
Proof.
  unfold wf_row. intros Hwf. apply andb_true_iff in Hwf. destruct Hwf as [Hok Htop].
  pose proof (RowInv_all P Hok) as HI. pose proof (merged_cl P) as Hcl.
  destruct (fold_left merge_row P None) as [s|]; cbn [RowInv] in HI; [|subst P; reflexivity].
  destruct HI as [w [Hw [Hmax [Hcw Hst]]]]. cbn [local_cl] in Hcl. rewrite Hcw in Hcl.
  unfold row_spec. destruct P as [|p P']; [destruct Hw|]. rewrite <- Hcl in Htop |- *.
  cbn [option_map]. unfold row_obs. rewrite Hcw.
  destruct (Z.even (r_cl w)) eqn:Eev.
  { unfold is_data in Hst. rewrite <- Z.negb_even, Eev, andb_false_r in Hst. destruct Hst as [-> _]. reflexivity. }
  cbn [orb] in Htop. apply existsb_exists in Htop. destruct Htop as [d [Hd Ht]].
  (* the owner is a greatest value record of the generation *)
  assert (Hk : forall r, In r (p :: P') -> is_top (r_cl w) r = true -> is_data w = true /\ key3_lt w r = false).
  { intros r Hr Hr'. apply is_top_spec in Hr'. destruct Hr' as [Hs Hc]. specialize (Hmax r Hr).
    rewrite sdom_level in Hmax by congruence. unfold is_data at 1 in Hmax. rewrite Hs, Hc, <- Z.negb_even, Eev in Hmax.
    apply orb_false_iff in Hmax. destruct Hmax as [H1 H2]. split; [apply negb_false_iff, H1|exact H2]. }
  destruct (Hk d Hd Ht) as [Hdw _]. rewrite Hdw in Hst. rewrite Hst.
  rewrite (best_max _ w); [reflexivity| |].
  - apply filter_In. split; [exact Hw|]. apply is_top_spec. unfold is_data in Hdw. apply andb_true_iff in Hdw.
    split; [apply negb_true_iff, Hdw|reflexivity].
  - intros r Hr. apply filter_In in Hr. apply key3_le_lex, (Hk r); apply Hr.
Qed.

(* r is dominated by r' when r' alone already decides at least as much: a newer generation, or
   the same generation and (r is only a marker, or both carry a value and r' carries the
   greater (column version, value)) *)
Definition dominated (r r' : rec) : Prop :=
  r_cl r < r_cl r' \/
  (r_cl r = r_cl r' /\ (r_sent r = true \/ (r_sent r' = false /\ lexlt (rkey r') (rkey r) = false))).

Lemma sdom_dominated r r' : sdom r r' = true -> dominated r r'.
Proof.
  intros H. apply sdom_spec in H. unfold dominated. destruct H as [H|[H [Ho H']]]; [left; exact H|].
  right. split; [exact H|]. unfold is_data in H'. destruct H' as [[A _]|[_ [B K]]]; [left|right].
  - rewrite Ho, andb_true_r in A. apply negb_false_iff, A.
  - apply andb_true_iff in B. split; [apply negb_true_iff, B|].
    apply lexle_spec. apply key3_spec in K. unfold rkey. cbn. lia.
Qed.

(* P2 is P1 without some records that are dominated by one that stays *)
Definition supersedes (P2 P1 : list rec) : Prop :=
  incl P2 P1 /\ forall r, In r P1 -> In r P2 \/ exists r', In r' P2 /\ dominated r r'.

Lemma supersedes_maxcl P1 P2 : supersedes P2 P1 -> maxcl P1 = maxcl P2.
Proof.
  intros [Hsub Hdom]. apply Z.le_antisymm; apply maxcl_le; intros r Hr.
  - destruct (Hdom r Hr) as [Hin|[r' [Hin Hd]]]; [exists r; split; [exact Hin|lia]|].
    exists r'. split; [exact Hin|]. destruct Hd as [Hd|[Hd _]]; lia.
  - exists r. split; [apply Hsub, Hr|lia].
Qed.

(* a value record of the newest generation is dominated only by another one, with a key at least as great *)
Lemma supersedes_top P1 P2 r :
  supersedes P2 P1 -> In r P1 -> is_top (maxcl P1) r = true ->
  exists r', In r' P2 /\ is_top (maxcl P1) r' = true /\ lexlt (rkey r') (rkey r) = false.
Proof.
  intros HS Hr Ht. pose proof (supersedes_maxcl _ _ HS) as HM. destruct HS as [_ Hdom].
  destruct (Hdom r Hr) as [Hin|[r' [Hin Hd]]]; [exists r; split; [exact Hin|]; split; [exact Ht|apply lexlt_irrefl]|].
  apply is_top_spec in Ht. destruct Ht as [Hs Hc]. pose proof (maxcl_ub _ _ Hin).
  destruct Hd as [Hd|[Hc' [Hd|[Hs' Hk]]]]; [lia|congruence|].
  exists r'. split; [exact Hin|]. split; [apply is_top_spec; split; [exact Hs'|lia]|exact Hk].
Qed.

Theorem row_spec_superseded P1 P2 : supersedes P2 P1 -> row_spec P1 = row_spec P2.
Proof.
  intros HS. unfold row_spec. rewrite <- (supersedes_maxcl _ _ HS).
  destruct P1 as [|p P1'], P2 as [|q P2']; [reflexivity|destruct (proj1 HS q (or_introl eq_refl))| |].
  { destruct (proj2 HS p (or_introl eq_refl)) as [[]|[r' [[] _]]]. }
  destruct (Z.even (maxcl (p :: P1'))); [reflexivity|].
  erewrite best_dominated; [reflexivity| |].
  - intros r Hr. apply filter_In in Hr. apply filter_In. split; [apply (proj1 HS), Hr|apply Hr].
  - intros r Hr. apply filter_In in Hr. destruct (supersedes_top _ _ r HS) as [r' [Hin [Ht Hk]]]; [apply Hr..|].
    exists r'. split; [apply filter_In; split; assumption|exact Hk].
Qed.

Lemma wf_row_superseded P1 P2 : supersedes P2 P1 -> wf_row P1 = true -> wf_row P2 = true.
Proof.
  intros HS. unfold wf_row. rewrite <- (supersedes_maxcl _ _ HS).
  intros H. apply andb_true_iff in H as [Hok Htop]. apply andb_true_iff. split.
  - rewrite forallb_forall in *. intros x Hx. apply Hok, (proj1 HS), Hx.
  - apply orb_true_iff in Htop as [He|Hex]; apply orb_true_iff; [left; exact He|right].
    apply existsb_exists in Hex as [x [Hx Ht]]. apply existsb_exists.
    destruct (supersedes_top _ _ x HS Hx Ht) as [x' [Hx' [Ht' _]]]. exists x'. split; assumption.
Qed.

Definition same_members (P1 P2 : list rec) : Prop := forall r, In r P1 <-> In r P2.

Lemma members_supersede P1 P2 : same_members P1 P2 -> supersedes P2 P1.
Proof. intros Hm. split; [intros r; apply Hm|]. intros r Hr. left. apply Hm, Hr. Qed.

Theorem row_spec_members P1 P2 : same_members P1 P2 -> row_spec P1 = row_spec P2.
Proof. intros Hm. apply row_spec_superseded, members_supersede, Hm. Qed.

Lemma merge_all_get rs : forall d k,
  dget k (merge_all d rs) = fold_left merge_row (on_row k rs) (dget k d).
Proof.
  unfold merge_all, on_row. induction rs as [|r rs IH]; intros d k; cbn [fold_left filter]; [reflexivity|].
  rewrite IH, merge_get. rewrite (Z.eqb_sym k (r_row r)).
  destruct (Z.eqb_spec (r_row r) k) as [<-|]; reflexivity.
Qed.

(* sorted association lists are determined by their lookups.  This [aget] is not
   Model.Book.aget: a file that imports both has to qualify the name. *)
Section Assoc.
  Context {A : Type}.
  Fixpoint aget (k : Z) (l : list (Z * A)) : option A :=
    match l with [] => None | (k', v) :: t => if k =? k' then Some v else aget k t end.
  (* sortedness said through lookups: no key at or below the head's occurs after it *)
  Fixpoint asorted (l : list (Z * A)) : Prop :=
    match l with [] => True | (k, _) :: t => (forall k', k' <= k -> aget k' t = None) /\ asorted t end.

  Lemma aget_first k k0 v0 t : asorted ((k0, v0) :: t) -> aget k ((k0, v0) :: t) <> None -> k0 <= k.
  Proof.
    intros [Hb _] H. destruct (Z.le_gt_cases k0 k) as [Hle|Hlt]; [exact Hle|]. destruct H.
    cbn [aget]. destruct (Z.eqb_spec k k0); [lia|]. apply Hb. lia.
  Qed.

  Lemma asorted_ext l1 : forall l2, asorted l1 -> asorted l2 -> (forall k, aget k l1 = aget k l2) -> l1 = l2.
  Proof.
    induction l1 as [|[k1 v1] t1 IH]; intros [|[k2 v2] t2] Hs1 Hs2 Hget.
    - reflexivity.
    - specialize (Hget k2). cbn [aget] in Hget. rewrite Z.eqb_refl in Hget. discriminate.
    - specialize (Hget k1). cbn [aget] in Hget. rewrite Z.eqb_refl in Hget. discriminate.
    - assert (Hk : k1 = k2).
      { apply Z.le_antisymm.
        - apply (aget_first k2 k1 v1 t1 Hs1). rewrite Hget. cbn [aget]. rewrite Z.eqb_refl. discriminate.
        - apply (aget_first k1 k2 v2 t2 Hs2). rewrite <- Hget. cbn [aget]. rewrite Z.eqb_refl. discriminate. }
      subst k2. pose proof (Hget k1) as Hv. cbn [aget] in Hv. rewrite Z.eqb_refl in Hv. injection Hv as <-.
      destruct Hs1 as [Hb1 Hs1], Hs2 as [Hb2 Hs2]. f_equal. apply IH; [exact Hs1|exact Hs2|]. intros k.
      destruct (Z.eqb_spec k k1) as [->|Hne]; [rewrite Hb1, Hb2 by lia; reflexivity|].
      specialize (Hget k). cbn [aget] in Hget. apply Z.eqb_neq in Hne. rewrite Hne in Hget. exact Hget.
  Qed.
End Assoc.

Lemma dget_aget k d : dget k d = aget k d.
Proof. reflexivity. Qed.

Lemma in_sorted_dget : forall (d : db) k s, asorted d -> In (k, s) d -> dget k d = Some s.
Proof.
  induction d as [|[k0 s0] t IH]; intros k s Hs Hin; [destruct Hin|].
  destruct Hs as [Hb Hs]. cbn [dget]. destruct Hin as [Hin|Hin].
  - injection Hin as -> ->. rewrite Z.eqb_refl. reflexivity.
  - pose proof (IH k s Hs Hin) as Hg. destruct (Z.eqb_spec k k0) as [->|_]; [|exact Hg].
    rewrite dget_aget, Hb in Hg by lia. discriminate.
Qed.

Lemma dset_sorted k v d : asorted d -> asorted (dset k v d).
Proof.
  induction d as [|[k0 v0] t IH]; cbn [dset asorted].
  - intros _. split; [reflexivity|exact I].
  - intros [Hb Hs]. destruct (Z.eqb_spec k k0) as [->|Hne].
    + split; assumption.
    + destruct (Z.ltb_spec k k0) as [Hlt|Hge]; cbn [asorted].
      * split; [|split; assumption]. intros k' Hk'. cbn [aget]. destruct (Z.eqb_spec k' k0); [lia|]. apply Hb. lia.
      * split; [|apply IH, Hs]. intros k' Hk'. rewrite <- dget_aget, dget_dset, dget_aget. destruct (Z.eqb_spec k' k); [lia|]. apply Hb, Hk'.
Qed.

Lemma merge_sorted d r : asorted d -> asorted (merge d r).
Proof.
  intros Hs. destruct (merge_dset d r) as [[-> _]|[s [_ ->]]]; [exact Hs|apply dset_sorted, Hs].
Qed.

Lemma merge_all_sorted rs : forall d, asorted d -> asorted (merge_all d rs).
Proof.
  apply (fold_left_inv asorted merge). intros d r _. apply merge_sorted.
Qed.

Lemma omap_get k d : aget k (omap d) = option_map row_obs (dget k d).
Proof.
  unfold omap. induction d as [|[k0 v0] t IH]; cbn [map aget dget fst snd]; [reflexivity|].
  destruct (k =? k0); [reflexivity|exact IH].
Qed.

Lemma omap_sorted d : asorted d -> asorted (omap d).
Proof.
  induction d as [|[k0 v0] t IH]; [intros _; exact I|]. intros [Hb Hs]. split; [|apply IH, Hs].
  intros k' Hk'. rewrite omap_get, dget_aget, Hb by exact Hk'. reflexivity.
Qed.

Lemma omap_shows d1 : forall d2, omap d1 = omap d2 -> table d1 = table d2 /\ versions d1 = versions d2.
Proof.
  induction d1 as [|[k s1] t1 IH]; intros [|[k2 s2] t2] H; try discriminate H; [split; reflexivity|].
  injection H as <- Hcl Hcol Ht. destruct (IH t2 Ht) as [IHt IHv].
  unfold table, versions. cbn [flat_map map fst snd]. fold (table t1) (table t2) (versions t1) (versions t2).
  rewrite Hcl, IHt, IHv. destruct (rw_col s1) as [c1|], (rw_col s2) as [c2|]; try discriminate Hcol.
  - injection Hcol as -> ->. split; reflexivity.
  - split; reflexivity.
Qed.

Lemma on_row_in k rs r : In r (on_row k rs) <-> In r rs /\ r_row r = k.
Proof. unfold on_row. rewrite filter_In, Z.eqb_eq. tauto. Qed.

Lemma on_row_incl k rs1 rs2 : incl rs1 rs2 -> incl (on_row k rs1) (on_row k rs2).
Proof. intros Hi r. rewrite !on_row_in. intros [Hr Hk]. split; [apply Hi, Hr|exact Hk]. Qed.

Lemma wf_by_rows rs : forallb (fun r => wf_row (on_row (r_row r) rs)) rs = true -> wf rs.
Proof.
  intros H k. destruct (on_row k rs) as [|r P] eqn:E; [unfold wf_row; rewrite maxcl_nil; reflexivity|].
  assert (Hr : In r (on_row k rs)) by (rewrite E; left; reflexivity).
  apply on_row_in in Hr. destruct Hr as [Hr <-]. rewrite <- E.
  rewrite forallb_forall in H. apply (H r Hr).
Qed.

Lemma tables_of_rows rs1 rs2 :
  (forall k, option_map row_obs (dget k (merge_all [] rs1)) = option_map row_obs (dget k (merge_all [] rs2))) ->
  table (merge_all [] rs1) = table (merge_all [] rs2) /\ versions (merge_all [] rs1) = versions (merge_all [] rs2).
Proof.
  intros H. apply omap_shows, asorted_ext; try (apply omap_sorted, merge_all_sorted; exact I).
  intros k. rewrite !omap_get. apply H.
Qed.

Theorem merge_all_spec rs k :
  wf rs -> option_map row_obs (dget k (merge_all [] rs)) = row_spec (on_row k rs).
Proof. intros Hwf. rewrite merge_all_get. cbn [dget]. apply merge_rows_spec, Hwf. Qed.

(* CONVERGENCE: a node that never received records that were superseded (overwritten cells are
   not kept by the origin, their versions are served as cleared) has a well-formed collection
   too and shows the same thing.  R is a parameter: ClusterProofs instantiates it with [sdom],
   which sdom_dominated shows stronger than [dominated]. *)
Theorem converge_dominated (R : rec -> rec -> Prop) rs1 rs2 :
  (forall r r', R r r' -> dominated r r') -> wf rs1 -> incl rs2 rs1 ->
  (forall r, In r rs1 -> In r rs2 \/ exists r', In r' rs2 /\ r_row r' = r_row r /\ R r r') ->
  wf rs2 /\
  (table (merge_all [] rs1) = table (merge_all [] rs2) /\ versions (merge_all [] rs1) = versions (merge_all [] rs2)).
Proof.
  intros HR Hwf1 Hsub Hdom.
  assert (HS : forall k, supersedes (on_row k rs2) (on_row k rs1)).
  { intros k. split; [apply on_row_incl, Hsub|]. intros r Hr. apply on_row_in in Hr. destruct Hr as [Hr Hk].
    destruct (Hdom r Hr) as [Hin|[r' [Hin [Hrow Hd]]]]; [left; apply on_row_in; split; assumption|].
    right. exists r'. split; [apply on_row_in; split; [exact Hin|congruence]|apply HR, Hd]. }
  assert (Hwf2 : wf rs2) by (intros k; apply (wf_row_superseded _ _ (HS k)), Hwf1).
  split; [exact Hwf2|]. apply tables_of_rows. intros k. rewrite !merge_all_spec by assumption.
  apply row_spec_superseded, HS.
Qed.

Theorem converge_superseded rs1 rs2 :
  wf rs1 -> wf rs2 ->
  (forall r, In r rs2 -> In r rs1) ->
  (forall r, In r rs1 -> In r rs2 \/ exists r', In r' rs2 /\ r_row r' = r_row r /\ dominated r r') ->
  table (merge_all [] rs1) = table (merge_all [] rs2) /\ versions (merge_all [] rs1) = versions (merge_all [] rs2).
Proof. intros Hwf1 _ Hsub Hdom. apply (converge_dominated dominated rs1 rs2); auto. Qed.

(* in particular two nodes that merged the same records -- in any order, any number of times --
   show the same tables and the same per-cell versions *)
Theorem converge_tables rs1 rs2 :
  wf rs1 -> same_members rs1 rs2 ->
  table (merge_all [] rs1) = table (merge_all [] rs2) /\ versions (merge_all [] rs1) = versions (merge_all [] rs2).
Proof.
  intros Hwf Hm. apply (converge_dominated dominated rs1 rs2); auto; [intros r; apply Hm|].
  intros r Hr. left. apply Hm, Hr.
Qed.
