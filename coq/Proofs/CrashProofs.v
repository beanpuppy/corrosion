(* What a restart rebuilds: BookedVersions::from_conn of the durable rows
   satisfies the bookkeeping invariant (so every theorem about reachable
   bookkeeping states -- C02 partition, C04 requests -- applies to
   the state after a crash at any commit boundary). *)
From Coq Require Import List ZArith Lia.
From Corro Require Import Lib.Ivl Model.Book Proofs.BookProofs.
Import ListNotations.
Open Scope Z_scope.

Definition step_sr (b : bv) (r : seqrow) : bv :=
  fst (insert_partial b (sr_version r) (mkPartial [(sr_start r, sr_end r)] (sr_last r))).

(* the fold starts without gaps and opens none: with an empty needed set any version may be
   inserted *)
Lemma fold_sr_inv : forall rows b,
  Inv b [] -> Forall (fun r => 1 <= sr_version r) rows ->
  let b' := fold_left step_sr rows b in
  Inv b' [] /\ max0 (maxv b) <= max0 (maxv b') /\
  (forall r, In r rows -> sr_version r <= max0 (maxv b')) /\
  (forall v p, aget v (partials b') = Some p ->
     aget v (partials b) = Some p \/ exists r, In r rows /\ sr_version r = v).
Proof.
  induction rows as [|r rows IH]; intros b HI Hall; cbn [fold_left].
  - split; [exact HI|]. split; [lia|]. split; [intros r []|eauto].
  - inversion Hall as [|? ? Hr Hrest]; subst.
    assert (Hn : ~ mem (sr_version r) (needed b)) by (rewrite <- (inv_rows _ _ HI); intros []).
    assert (Hm1 : max0 (maxv (step_sr b r)) = Z.max (max0 (maxv b)) (sr_version r))
      by (apply (insert_partial_max b [] _ _ HI Hr)).
    destruct (IH (step_sr b r) (insert_partial_inv b [] _ _ HI Hr Hn) Hrest) as (H1 & H2 & H3 & H4).
    split; [exact H1|]. split; [lia|]. split.
    + intros r' [<-|Hin]; [lia|apply H3, Hin].
    + intros v p Hg. destruct (H4 v p Hg) as [Hp0|(r' & Hr' & Hv)]; [|right; exists r'; cbn [In]; auto].
      apply insert_partial_keys in Hp0 as [->|Hp0]; [right; exists r; cbn [In]; auto|left; exact Hp0].
Qed.

(* durable rows as every commit leaves them *)
Record DurInv (dbmax : option Z) (seqrows : list seqrow) (gaprows : rows) : Prop := {
  du_canon : canonical gaprows;
  du_dbmax : 0 <= max0 dbmax;
  du_seq_pos : Forall (fun r => 1 <= sr_version r) seqrows;
  du_seq_not_gap : forall r, In r seqrows -> ~ mem (sr_version r) gaprows;
  (* every needed version lies below a version the node knows about *)
  du_gap_range : forall x, mem x gaprows ->
     1 <= x /\ (x < max0 dbmax \/ exists r, In r seqrows /\ x < sr_version r) }.

Theorem from_conn_inv dbmax seqrows gaprows :
  DurInv dbmax seqrows gaprows ->
  Inv (from_conn dbmax seqrows gaprows) gaprows.
Proof.
  intros [Hc Hd Hsp Hsn Hgr]. unfold from_conn.
  change (fold_left _ seqrows (mkBv [] [] dbmax)) with (fold_left step_sr seqrows (mkBv [] [] dbmax)).
  destruct (fold_sr_inv seqrows _ (Inv_empty dbmax Hd) Hsp) as (HI & Hm & Hle & Hsrc). cbn [maxv partials] in Hm, Hsrc.
  fold (norm gaprows). rewrite (norm_id gaprows Hc).
  constructor; cbn [needed partials maxv].
  - exact Hc.
  - reflexivity.
  - lia.
  - intros x Hx. destruct (Hgr x Hx) as [H1 [H2|(r & Hr & H2)]]; [lia|].
    specialize (Hle r Hr). lia.
  - intros v p Hg. split; [apply (inv_part _ _ HI _ _ Hg)|].
    destruct (Hsrc v p Hg) as [H0|(r & Hr & <-)]; [discriminate|]. apply Hsn, Hr.
  - apply HI.
Qed.
