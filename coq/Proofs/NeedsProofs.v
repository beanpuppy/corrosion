From Coq Require Import List ZArith Bool Lia.
From Corro Require Import Lib.Ivl Lib.ListFacts Model.Needs.
Import ListNotations.
Open Scope Z_scope.

Lemma clip_mem haves rs x : mem x (clip haves rs) <-> mem x rs /\ mem x haves.
Proof.
  unfold clip. split.
  - intros H. apply mem_In in H. destruct H as (t & Ht & Hx).
    apply in_flat_map in Ht. destruct Ht as (r & Hr & Ht).
    apply in_map_iff in Ht. destruct Ht as (o & <- & Ho).
    apply overlapping_In in Ho. cbn [fst snd] in Hx. destruct Ho as (Ho & _ & _).
    split; [apply (In_mem r); [exact Hr|lia]|apply (In_mem o); [exact Ho|lia]].
  - intros [Hr Hh]. apply mem_In in Hr. destruct Hr as (r & Hr & Hxr).
    apply mem_In in Hh. destruct Hh as (o & Ho & Hxo).
    apply (In_mem (Z.max (fst r) (fst o), Z.min (snd r) (snd o))); [|cbn; lia].
    apply in_flat_map. exists r. split; [exact Hr|]. apply in_map_iff. exists o. split; [reflexivity|].
    apply overlapping_In. split; [exact Ho|lia].
Qed.

Definition uniq_keys {V} (m : list (Z * V)) : Prop := NoDup (map fst m).

Lemma zget_Some_In {V} : forall (m : list (Z * V)) k v, zget k m = Some v -> In (k, v) m.
Proof.
  induction m as [|[k' v'] m IH]; intros k v H; [discriminate|]. cbn in H.
  destruct (k =? k') eqn:E; [apply Z.eqb_eq in E; subst; injection H as ->; left; reflexivity|right; apply IH, H].
Qed.

Record wf_state (s : sstate) : Prop := {
  wf_heads : uniq_keys (ss_heads s);
  wf_heads_pos : forall a h, In (a, h) (ss_heads s) -> 0 <= h;
  wf_need_ok : forall a ns, zget a (ss_need s) = Some ns -> ranges_ok ns;
  wf_partial_keys : forall a ps, zget a (ss_partial s) = Some ps -> uniq_keys ps }.

Lemma other_haves_mem other a head x : wf_state other -> 1 <= head ->
  (mem x (other_haves other a head) <->
   1 <= x <= head /\
   ~ (exists ns, zget a (ss_need other) = Some ns /\ mem x ns) /\
   ~ (exists ps, zget a (ss_partial other) = Some ps /\ exists q, In (x, q) ps)).
Proof.
  intros Hwf Hh. unfold other_haves.
  assert (Hc0 : canonical [(1, head)]) by (exists 1; cbn; lia).
  assert (Hm0 : forall y, mem y [(1, head)] <-> 1 <= y <= head) by (intros y; cbn; lia).
  set (h1 := match zget a (ss_need other) with Some ns => rem_all ns [(1, head)] | None => [(1, head)] end).
  assert (Hh1 : canonical h1 /\ forall y, mem y h1 <-> 1 <= y <= head /\
                 ~ (exists ns, zget a (ss_need other) = Some ns /\ mem y ns)).
  { unfold h1. destruct (zget a (ss_need other)) as [ns|] eqn:E.
    - pose proof (wf_need_ok _ Hwf a ns E) as Hok. split; [apply rem_all_canonical; assumption|].
      intros y. rewrite rem_all_mem by assumption. rewrite Hm0. split.
      + intros [H1 H2]. split; [exact H1|]. intros (ns' & E' & Hm). injection E' as <-. contradiction.
      + intros [H1 H2]. split; [exact H1|]. intros Hm. apply H2. exists ns. split; [reflexivity|exact Hm].
    - split; [exact Hc0|]. intros y. rewrite Hm0. split; [intros H; split; [exact H|intros (ns & E' & _); discriminate]|intros [H _]; exact H]. }
  destruct Hh1 as [Hc1 Hm1].
  destruct (zget a (ss_partial other)) as [ps|] eqn:E.
  - rewrite rem_all_mem, Hm1 by (try assumption; apply (ranges_ok_points fst)). split.
    + intros [[H1 H2] H3]. split; [exact H1|split; [exact H2|]]. intros (ps' & E' & q & Hq). injection E' as <-.
      apply H3, (mem_points fst). exists (x, q). split; [exact Hq|reflexivity].
    + intros (H1 & H2 & H3). split; [split; assumption|]. intros Hm. apply H3. exists ps. split; [reflexivity|].
      apply (mem_points fst) in Hm. destruct Hm as ([k q] & Hp & <-). exists q. exact Hp.
  - rewrite Hm1. split; [intros [H1 H2]|intros (H1 & H2 & _); split; assumption].
    split; [exact H1|split; [exact H2|intros (ps & E' & _); discriminate]].
Qed.

Lemma In_needs us other a l :
  In (a, l) (compute_available_needs us other) <->
  a <> ss_actor us /\ exists head, In (a, head) (ss_heads other) /\ head <> 0 /\
                                   l = needs_for us other a head /\ l <> [].
Proof.
  unfold compute_available_needs. rewrite in_flat_map. split.
  - intros ([a' head] & Hin & H).
    destruct (a' =? ss_actor us) eqn:E1; [destruct H|]. destruct (head =? 0) eqn:E2; [destruct H|].
    destruct (needs_for us other a' head) as [|n l'] eqn:E3; [destruct H|].
    destruct H as [[= -> <-]|[]]. apply Z.eqb_neq in E1, E2.
    split; [exact E1|]. exists head. rewrite E3. repeat split; try assumption. discriminate.
  - intros (Ha & head & Hin & Hh & -> & Hne). exists (a, head). split; [exact Hin|].
    apply Z.eqb_neq in Ha, Hh. rewrite Ha, Hh.
    destruct (needs_for us other a head); [contradiction|left; reflexivity].
Qed.

Lemma In_Full_needs_for us other a head s e :
  In (Full s e) (needs_for us other a head) <->
  (exists our, zget a (ss_need us) = Some our /\ In (s, e) (clip (other_haves other a head) our)) \/
  (e = head /\ match zget a (ss_heads us) with Some h => h < head /\ s = h + 1 | None => s = 1 end).
Proof.
  unfold needs_for. split.
  - intros H. apply in_app_or in H as [H|H]; [|apply in_app_or in H as [H|H]].
    + left. destruct (zget a (ss_need us)) as [our|]; [|destruct H]. exists our. split; [reflexivity|].
      apply in_map_iff in H. destruct H as ([s' e'] & [= -> ->] & Ht). exact Ht.
    + exfalso. destruct (zget a (ss_partial us)) as [ours|]; [|destruct H].
      apply in_flat_map in H. destruct H as ([v' seqs] & _ & H).
      destruct (memb v' (other_haves other a head)); [destruct H as [E|[]]; discriminate|].
      destruct (match zget a (ss_partial other) with Some m => zget v' m | None => None end) as [os|]; [|destruct H].
      destruct (omaxz (max_end os) (max_end seqs)); [|destruct H].
      destruct (clip _ seqs); [destruct H|destruct H as [E|[]]; discriminate].
    + right. destruct (zget a (ss_heads us)) as [h|].
      * destruct (h <? head) eqn:E; [|destruct H]. destruct H as [[= <- <-]|[]]. apply Z.ltb_lt in E. auto.
      * destruct H as [[= <- <-]|[]]. auto.
  - intros [(our & -> & Ht)|[-> Hh]].
    + apply in_or_app. left. apply in_map_iff. exists (s, e). split; [reflexivity|exact Ht].
    + apply in_or_app; right; apply in_or_app; right. destruct (zget a (ss_heads us)) as [h|].
      * destruct Hh as [Hlt ->]. apply Z.ltb_lt in Hlt. rewrite Hlt. left; reflexivity.
      * subst s. left; reflexivity.
Qed.

(* for a version the peer holds, the Partial needs are our partial entries as they stand *)
Lemma In_Partial_held us other a head v l : memb v (other_haves other a head) = true ->
  (In (Partial v l) (needs_for us other a head) <->
   exists ours, zget a (ss_partial us) = Some ours /\ In (v, l) ours).
Proof.
  intros Hm. unfold needs_for. split.
  - intros H. apply in_app_or in H as [H|H]; [|apply in_app_or in H as [H|H]].
    + destruct (zget a (ss_need us)); [|destruct H]. apply in_map_iff in H as (? & E & _). discriminate.
    + destruct (zget a (ss_partial us)) as [ours|]; [|destruct H]. exists ours. split; [reflexivity|].
      apply in_flat_map in H as ([v' s'] & Hin & H).
      destruct (memb v' (other_haves other a head)) eqn:Em; [destruct H as [[= -> ->]|[]]; exact Hin|].
      (* an entry cut down to what the peer has is for a version the peer does not hold *)
      destruct (match zget a (ss_partial other) with Some m => zget v' m | None => None end) as [os|]; [|destruct H].
      destruct (omaxz (max_end os) (max_end s')); [|destruct H].
      destruct (clip _ s'); [destruct H|]. destruct H as [[= -> _]|[]]. congruence.
    + destruct (zget a (ss_heads us)) as [h|]; [destruct (h <? head); [|destruct H]|]; destruct H as [E|[]]; discriminate.
  - intros (ours & -> & Hin). apply in_or_app; right; apply in_or_app; left.
    apply in_flat_map. exists (v, l). split; [exact Hin|]. rewrite Hm. left; reflexivity.
Qed.

(* what we list as needed and the peer holds, and everything between our head and the peer's
   (the latter whether or not the peer lists it as needed itself) *)
Theorem req_full_iff us other a v :
  req_full (compute_available_needs us other) a v <->
  a <> ss_actor us /\ exists head, In (a, head) (ss_heads other) /\ head <> 0 /\
    ((exists our, zget a (ss_need us) = Some our /\ mem v our /\ mem v (other_haves other a head)) \/
     (match zget a (ss_heads us) with Some h => h < v | None => 1 <= v end /\ v <= head)).
Proof.
  unfold req_full. split.
  - intros (l & s & e & Hin & Hf & Hv). apply In_needs in Hin. destruct Hin as (Ha & head & Hhead & Hh0 & -> & _).
    split; [exact Ha|]. exists head. split; [exact Hhead|]. split; [exact Hh0|].
    apply In_Full_needs_for in Hf. destruct Hf as [(our & Hour & Ht)|[-> Hs]]; [left|right].
    + exists our. split; [exact Hour|]. apply clip_mem, (In_mem (s, e)); assumption.
    + destruct (zget a (ss_heads us)); lia.
  - intros (Ha & head & Hhead & Hh0 & H).
    assert (Hreq : exists s e, In (Full s e) (needs_for us other a head) /\ s <= v <= e).
    { destruct H as [(our & Hour & Hm)|[Hs He]].
      - apply clip_mem, mem_In in Hm. destruct Hm as ([s e] & Ht & Hx). exists s, e. split; [|exact Hx].
        apply In_Full_needs_for. left. exists our. auto.
      - destruct (zget a (ss_heads us)) as [h|] eqn:E; [exists (h + 1), head|exists 1, head]; (split; [|lia]);
          apply In_Full_needs_for; right; rewrite E; split; auto; lia. }
    destruct Hreq as (s & e & Hin & Hse). exists (needs_for us other a head), s, e. split; [|split; assumption].
    apply In_needs. split; [exact Ha|]. exists head. repeat split; try assumption.
    intros E. rewrite E in Hin. destruct Hin.
Qed.

Theorem needs_within_head us other a v :
  wf_state other -> (forall a h, In (a, h) (ss_heads us) -> 0 <= h) ->
  req_full (compute_available_needs us other) a v ->
  a <> ss_actor us /\ exists head, In (a, head) (ss_heads other) /\ 1 <= v <= head.
Proof.
  intros Hwf Hus H. apply req_full_iff in H. destruct H as (Ha & head & Hhead & Hh0 & H).
  split; [exact Ha|]. exists head. split; [exact Hhead|].
  pose proof (wf_heads_pos _ Hwf _ _ Hhead) as Hpos.
  destruct H as [(our & _ & _ & Hm)|[Hs He]].
  - apply (proj1 (other_haves_mem other a head v Hwf ltac:(lia))), Hm.
  - destruct (zget a (ss_heads us)) as [h|] eqn:E; [|lia]. apply zget_Some_In, Hus in E. lia.
Qed.

Definition peer_holds (other : sstate) (a v : Z) : Prop :=
  exists head, In (a, head) (ss_heads other) /\ 1 <= v <= head /\
  ~ (exists ns, zget a (ss_need other) = Some ns /\ mem v ns) /\
  ~ (exists ps, zget a (ss_partial other) = Some ps /\ exists q, In (v, q) ps).

Definition we_lack (us : sstate) (a v : Z) : Prop :=
  zget a (ss_heads us) = None \/
  (exists h, zget a (ss_heads us) = Some h /\ h < v) \/
  (exists ns, zget a (ss_need us) = Some ns /\ mem v ns).

Theorem needs_complete_full us other a v :
  wf_state other -> a <> ss_actor us ->
  peer_holds other a v -> we_lack us a v ->
  req_full (compute_available_needs us other) a v.
Proof.
  intros Hwf Ha (head & Hhead & Hv & Hnn & Hnp) Hlack. apply req_full_iff.
  split; [exact Ha|]. exists head. split; [exact Hhead|]. split; [lia|].
  destruct Hlack as [Hn|[(h & Hh & Hlt)|(ns & Hns & Hm)]].
  - right. rewrite Hn. lia.
  - right. rewrite Hh. lia.
  - left. exists ns. split; [exact Hns|]. split; [exact Hm|]. apply other_haves_mem; [exact Hwf|lia|auto].
Qed.

Theorem needs_partial_held us other a v seqs ours q :
  wf_state other -> a <> ss_actor us ->
  zget a (ss_partial us) = Some ours -> uniq_keys ours -> In (v, seqs) ours ->
  peer_holds other a v ->
  (req_seq (compute_available_needs us other) a v q <-> mem q seqs).
Proof.
  intros Hwf Ha Hours Huniq Hin (head & Hhead & Hv & Hnn & Hnp).
  assert (Hmem : memb v (other_haves other a head) = true)
    by (apply memb_iff, other_haves_mem; [exact Hwf|lia|auto]).
  split.
  - intros (l & seqs' & Hl & Hpl & Hq).
    apply In_needs in Hl as (_ & head' & Hhead' & _ & -> & _).
    (* the peer advertises one head per actor, and we hold one entry per version *)
    pose proof (NoDup_map_inj fst _ (a, head') (a, head) (wf_heads _ Hwf) Hhead' Hhead eq_refl) as [= ->].
    apply (In_Partial_held _ _ _ _ _ _ Hmem) in Hpl as (ours' & E & Hin'). rewrite Hours in E. injection E as <-.
    pose proof (NoDup_map_inj fst _ (v, seqs') (v, seqs) Huniq Hin' Hin eq_refl) as [= ->]. exact Hq.
  - intros Hq.
    assert (Hp : In (Partial v seqs) (needs_for us other a head)) by (apply In_Partial_held; [exact Hmem|exists ours; split; assumption]).
    exists (needs_for us other a head), seqs. split; [|split; assumption].
    apply In_needs. split; [exact Ha|]. exists head. repeat split; try assumption; [lia|].
    intros E. rewrite E in Hp. destruct Hp.
Qed.
