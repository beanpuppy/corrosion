(* Attach/resume (C12): what a subscriber receives is one interval of ids above its resume point. *)
From Coq Require Import List ZArith Bool Lia.
From Corro Require Import Model.Catchup.
Import ListNotations.
Open Scope Z_scope.

Lemma zrange_empty lo hi : hi < lo -> zrange lo hi = [].
Proof. intros H. unfold zrange. replace (Z.to_nat (hi - lo + 1)) with 0%nat by lia. reflexivity. Qed.

Lemma zrange_cons lo hi : lo <= hi -> zrange lo hi = lo :: zrange (lo + 1) hi.
Proof.
  intros H. unfold zrange.
  replace (Z.to_nat (hi - lo + 1)) with (S (Z.to_nat (hi - (lo + 1) + 1))) by lia.
  cbn [seq map]. f_equal; [lia|].
  rewrite <- seq_shift, map_map. apply map_ext. intros i. lia.
Qed.

Lemma zrange_app a b c : a <= b + 1 -> b <= c -> zrange a b ++ zrange (b + 1) c = zrange a c.
Proof.
  intros H1 H2. remember (Z.to_nat (b + 1 - a)) as n eqn:En. revert a H1 En.
  induction n as [|n IH]; intros a H1 En.
  - assert (a = b + 1) by lia. subst a. rewrite zrange_empty by lia. reflexivity.
  - rewrite (zrange_cons a b) by lia. rewrite (zrange_cons a c) by lia. cbn [app]. f_equal.
    apply IH; lia.
Qed.

Lemma consecutive_zrange a b : consecutive_from a (zrange (a + 1) b) = true.
Proof.
  remember (Z.to_nat (b - a)) as n eqn:En. revert a En. induction n as [|n IH]; intros a En.
  - destruct (Z_lt_le_dec b (a + 1)) as [H|H]; [rewrite zrange_empty by lia; reflexivity|lia].
  - rewrite zrange_cons by lia. cbn. rewrite Z.eqb_refl. cbn. apply IH. lia.
Qed.

Lemma retry_spec : forall n c L reads acc d L' ok,
  retry n c L reads acc = (d, L', ok) ->
  L <= L' /\ d = acc ++ zrange (L + 1) L' /\ (ok = true -> c <= L').
Proof.
  induction n as [|n IH]; intros c L reads acc d L' ok H; cbn [retry] in H.
  - injection H as <- <- <-. split; [lia|]. split; [rewrite zrange_empty by lia; rewrite app_nil_r; reflexivity|discriminate].
  - destruct (Z.leb_spec (L + 1) c).
    + apply IH in H as [H1 [H2 H3]]. split; [lia|]. split; [|exact H3].
      rewrite H2, <- app_assoc, zrange_app by lia. reflexivity.
    + injection H as <- <- <-. split; [lia|].
      split; [rewrite zrange_empty by lia; rewrite app_nil_r; reflexivity|intros _; lia].
Qed.

Lemma retry_ok n c L reads acc d L' : retry n c L reads acc = (d, L', true) ->
  L <= L' /\ c <= L' /\ d = acc ++ zrange (L + 1) L'.
Proof. intros H. apply retry_spec in H as [H1 [H2 H3]]. auto. Qed.

Lemma retry_any n c L reads acc d L' ok : retry n c L reads acc = (d, L', ok) ->
  L <= L' /\ d = acc ++ zrange (L + 1) L'.
Proof. intros H. apply retry_spec in H as [H1 [H2 _]]. auto. Qed.

Lemma fwd_acc l : forall acc L,
  fold_left fwd_filtered l (acc, L) =
  (acc ++ fst (fold_left fwd_filtered l ([], L)), snd (fold_left fwd_filtered l ([], L))).
Proof.
  induction l as [|x t IH]; intros acc L; cbn [fold_left].
  - rewrite app_nil_r. reflexivity.
  - cbn [fwd_filtered]. destruct (L <? x).
    + rewrite (IH (acc ++ [x]) x), (IH ([] ++ [x]) x). cbn [fst snd app]. rewrite <- app_assoc. reflexivity.
    + apply IH.
Qed.

Lemma fwd_consecutive : forall l s L, consecutive_from s l = true -> s <= L ->
  exists L', L <= L' /\ fold_left fwd_filtered l ([], L) = (zrange (L + 1) L', L').
Proof.
  induction l as [|x t IH]; intros s L Hc Hs.
  - exists L. split; [lia|]. cbn. rewrite zrange_empty by lia. reflexivity.
  - cbn [consecutive_from] in Hc. apply andb_true_iff in Hc as [Hx Ht]. apply Z.eqb_eq in Hx. subst x.
    cbn [fold_left fwd_filtered]. destruct (Z.ltb_spec L (s + 1)).
    + assert (L = s) by lia. subst L.
      destruct (IH (s + 1) (s + 1) Ht ltac:(lia)) as (L' & HL' & E). exists L'. split; [lia|].
      rewrite fwd_acc, E. cbn [fst snd app]. rewrite (zrange_cons (s + 1)) by lia. reflexivity.
    + apply (IH (s + 1)); [exact Ht|lia].
Qed.

Definition peek_list (p : option Z) : list Z := match p with Some c => [c] | None => [] end.

Definition stream_of (i : cin) : list Z := peek_list (ci_peek i) ++ ci_qrest i ++ ci_live i.

Record cin_wf (i : cin) : Prop := {
  wf_from : ci_from i <= ci_first i;
  (* live events are broadcast in id order and none is lost (no Lagged) *)
  wf_stream : exists s, consecutive_from s (stream_of i) = true /\
              (* what is broadcast later than the peek was emitted no later than right after
                 the watch value read at the peek *)
              (ci_peek i = None -> s <= ci_watch i) }.

(* the left-hand side is what catch_up forwards after its reads *)
Lemma stages_one_filter L p qrest live :
  let st0 := match p with Some c => fwd_filtered ([], L) c | None => ([], L) end in
  let st1 := fold_left fwd_filtered qrest st0 in
  fst st1 ++ fst (fold_left fwd_filtered live ([], snd st1)) =
  fst (fold_left fwd_filtered (peek_list p ++ qrest ++ live) ([], L)).
Proof.
  cbv zeta.
  assert (G : forall st0, fst (fold_left fwd_filtered qrest st0) ++
                          fst (fold_left fwd_filtered live ([], snd (fold_left fwd_filtered qrest st0))) =
                          fst (fold_left fwd_filtered (qrest ++ live) st0)).
  { intros st0. rewrite fold_left_app. destruct (fold_left fwd_filtered qrest st0) as [a l]. cbn [fst snd].
    rewrite (fwd_acc live a l). reflexivity. }
  destruct p as [c|]; cbn [peek_list app fold_left]; apply G.
Qed.

Theorem catch_up_consecutive attempts i d stopped :
  cin_wf i -> catch_up attempts true i = (d, stopped) -> consecutive_from (ci_from i) d = true.
Proof.
  intros [Hfrom [s [Hcons Hwatch]]] Hrun. unfold catch_up in Hrun.
  destruct (match _ with Some c => retry attempts c _ _ _ | None => _ end) as [[d1 L] ok] eqn:Er.
  rewrite stages_one_filter in Hrun. fold (stream_of i) in Hrun.
  assert (Hread : ci_first i <= L /\ d1 = zrange (ci_first i + 1) L /\ (ok = true -> s <= L)).
  { destruct (ci_peek i) as [c|] eqn:Epeek;
      [|specialize (Hwatch eq_refl); destruct (Z.leb_spec (ci_watch i) (ci_first i))].
    - (* an event c was peeked: the reads aim at c, which is the stream's first event *)
      apply retry_spec in Er as (H1 & H2 & H3).
      split; [exact H1|split; [exact H2|intros Hok; specialize (H3 Hok)]].
      unfold stream_of in Hcons. rewrite Epeek in Hcons. cbn [peek_list app consecutive_from] in Hcons.
      apply andb_true_iff in Hcons as [Hx _]. apply Z.eqb_eq in Hx. lia.
    - (* nothing peeked, and the watch value is not above the first read: no further read *)
      injection Er as <- <- <-. split; [lia|]. split; [rewrite zrange_empty by lia; reflexivity|intros _; lia].
    - (* nothing peeked: the reads aim at the watch value, which is not before the stream's start *)
      apply retry_spec in Er as (H1 & H2 & H3).
      split; [exact H1|split; [exact H2|intros Hok; specialize (H3 Hok); lia]]. }
  destruct Hread as (HL & -> & Hs). destruct ok; cbn [negb] in Hrun; injection Hrun as <- _.
  - destruct (fwd_consecutive _ s L Hcons (Hs eq_refl)) as (L' & HL' & ->). cbn [fst].
    rewrite !zrange_app by lia. apply consecutive_zrange.
  - rewrite zrange_app by lia. apply consecutive_zrange.
Qed.

Definition accepted (outs : list cout) : list Z :=
  flat_map (fun o => match o with CAccept id => [id] | CMissed _ _ => [] end) outs.

(* whatever arrives after the end-of-query, the changes the client accepts are start+1,
   start+2, ... without gap or repetition *)
Theorem client_accepts_consecutive : forall ids start,
  consecutive_from start (accepted (client_run (Some start) (map CChange ids))) = true.
Proof.
  induction ids as [|x t IH]; intros start; cbn [map client_run client_step]; [reflexivity|].
  destruct (Z.eqb_spec (start + 1) x) as [<-|_]; cbn [app accepted flat_map consecutive_from].
  - rewrite Z.eqb_refl. apply IH.
  - apply IH.
Qed.

(* ... and every other change is reported, none is dropped silently *)
Theorem client_reports_every_gap : forall ids start,
  length (client_run (Some start) (map CChange ids)) = length ids /\
  (consecutive_from start ids = true <-> client_run (Some start) (map CChange ids) = map CAccept ids).
Proof.
  induction ids as [|x t IH]; intros start; cbn [map client_run client_step length consecutive_from].
  - split; [reflexivity|split; reflexivity].
  - rewrite (Z.eqb_sym x). destruct (start + 1 =? x); cbn [app length andb].
    + destruct (IH x) as [H1 H2]. split; [f_equal; exact H1|].
      rewrite H2. split; [intros ->; reflexivity|intros H; injection H as H; exact H].
    + destruct (IH start) as [H1 _]. split; [f_equal; exact H1|]. split; discriminate.
Qed.
