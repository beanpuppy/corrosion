(* C06: the durable rows every commit of the bookkeeping leaves behind satisfy DurInv, in every
   reachable state of Model/BookOps.v, so the restart theorems hold for a crash after ANY
   committed step of ANY history. *)
From Coq Require Import List ZArith Lia.
From Corro Require Import Lib.Ivl Lib.ListFacts Model.Book Model.SeqRows Model.BookOps Proofs.BookProofs Proofs.SeqRowsProofs Proofs.CrashProofs.
Import ListNotations.
Open Scope Z_scope.

(* version v has a row in __corro_seq_bookkeeping *)
Definition seq_version (m : list (Z * list srow)) (v : Z) : Prop := exists l r, aget v m = Some l /\ In r l.

Lemma incomplete_nonempty cur s e last rows' seqs :
  incomplete_rows cur s e last = IncOk rows' seqs -> exists r, In r rows'.
Proof.
  unfold incomplete_rows.
  destruct (ins s e (ins_all (map fst (filter _ cur)) [])) as [|[a b] [|x l]]; try discriminate.
  destruct (srow_insert _ _) as [rows''|] eqn:E; [|discriminate].
  intros [= <- _]. eexists. apply (srow_insert_In _ _ _ E).
Qed.

(* the crsql_db_versions maximum written by an insert_db of the ranges vs: the end of the last
   range that lies beyond the old head M, if there is one *)
Definition dbmax_fold (M : Z) (vs : iset) (d : option Z) : option Z :=
  fold_left (fun d r => if M <? snd r then Some (snd r) else d) vs d.

Lemma dbmax_fold_spec M : forall vs lo d, canon_from lo vs ->
  (forall v, In v vs -> snd v <= Z.max M (max0 (dbmax_fold M vs d))) /\
  (dbmax_fold M vs d = d \/ M < max0 (dbmax_fold M vs d) /\ lo <= max0 (dbmax_fold M vs d)).
Proof.
  induction vs as [|[a b] t IH]; intros lo d Hc; cbn [dbmax_fold fold_left snd].
  - split; [intros v []|left; reflexivity].
  - cbn in Hc. destruct Hc as (H1 & H2 & H3).
    destruct (IH (b + 2) (if M <? b then Some b else d) H3) as [IHa IHb].
    fold (dbmax_fold M t (if M <? b then Some b else d)) in *.
    set (d' := dbmax_fold M t _) in *.
    (* later ranges end later: whatever overwrites Some b is larger *)
    assert (Hb : b <= Z.max M (max0 d') /\ (M < b -> M < max0 d' /\ lo <= max0 d')).
    { destruct (M <? b) eqn:E; zb; [|lia]. destruct IHb as [->|IHb]; cbn [max0]; lia. }
    split; [intros v [<-|Hv]; [apply Hb|apply IHa, Hv]|].
    destruct (M <? b) eqn:E; zb; [right; apply Hb, E|].
    destruct IHb as [IHb|IHb]; [left; exact IHb|right; lia].
Qed.

(* the combined invariant of a bookkeeping state: the live invariant, and what the durable
   rows need: seq rows only for versions up to the head that are not gaps, and a head that
   the restart can find again, in crsql_db_versions or as a seq row *)
Record Dur (st : bstate) : Prop := {
  dur_inv : Inv (st_bv st) (st_rows st);
  dur_dbmax : 0 <= max0 (st_dbmax st);
  dur_seq : forall v l, In (v, l) (st_seq st) ->
            1 <= v <= max0 (maxv (st_bv st)) /\ ~ mem v (needed (st_bv st));
  dur_link : max0 (maxv (st_bv st)) <= max0 (st_dbmax st) \/
             seq_version (st_seq st) (max0 (maxv (st_bv st))) }.

Lemma dur_init : Dur bstate_init.
Proof.
  constructor; cbn; [apply Inv_init|lia|intros v l []|left; lia].
Qed.

Lemma dur_step st op : Dur st -> op_ok op -> Dur (fst (bstep st op)) /\ out_fine (snd (bstep st op)).
Proof.
  intros HD Hop. pose proof HD as [HI Hd Hseq Hlink]. pose proof (inv_max _ _ HI) as HM.
  destruct op as [raw|v s e last|]; [| |destruct Hop]; cbn [bstep].
  - (* insert_db of complete / cleared versions *)
    pose proof (wf_vs_norm raw Hop) as Hwf. set (vs := ins_all raw []) in *.
    destruct (insert_db_ok _ _ _ HI (wf_vs_ranges _ Hwf)) as (b' & -> & HI' & Hspec & Hmono & _ & _ & Hleast).
    split; [|exact I]. cbn [fst st_bv st_rows st_seq st_dbmax].
    set (M := max0 (maxv (st_bv st))) in *. fold (dbmax_fold M vs (st_dbmax st)).
    destruct Hwf as [[lo Hlo] _].
    destruct (dbmax_fold_spec M vs lo (st_dbmax st) Hlo) as [Hfa Hfb].
    set (d' := dbmax_fold M vs (st_dbmax st)) in *. specialize (Hleast _ (Z.le_max_l M (max0 d')) Hfa).
    constructor; cbn [st_bv st_rows st_seq st_dbmax].
    + exact HI'.
    + destruct Hfb as [->|Hfb]; lia.
    + intros u l Hl. destruct (Hseq u l Hl) as [Hu Hn]. split; [lia|]. rewrite Hspec.
      intros [[H|(w & _ & Hg)] _]; [exact (Hn H)|]. unfold gapx in Hg. lia.
    + destruct (Z_lt_le_dec M (max0 d')) as [Hlt|Hle]; [left; lia|].
      (* nothing beyond the head was inserted: head and db maximum stay *)
      destruct Hfb as [->|Hfb]; [|lia]. replace (max0 (maxv b')) with M by lia. exact Hlink.
  - (* one chunk of an incomplete version *)
    destruct Hop as [Hv _].
    destruct (incomplete_rows _ s e last) as [rows' seqs| |] eqn:Einc; cbn [fst snd]; try (split; [exact HD|exact I]).
    destruct (insert_one_ok _ _ v HI Hv) as (b' & -> & HI' & Hmax & Hspec & _).
    assert (Hvn : ~ mem v (needed b')) by (intros H; apply Hspec in H as [_ H]; exact (H eq_refl)).
    pose proof (insert_partial_inv b' _ v (mkPartial seqs last) HI' Hv Hvn) as HI''.
    pose proof (insert_partial_needed b' v (mkPartial seqs last)) as Hn''.
    pose proof (insert_partial_max b' _ v (mkPartial seqs last) HI' Hv) as Hm''.
    destruct (insert_partial b' v (mkPartial seqs last)) as [b'' q]. cbn [fst snd] in *.
    split; [|exact I]. set (M := max0 (maxv (st_bv st))) in *.
    constructor; cbn [st_bv st_rows st_seq st_dbmax]; rewrite ?Hn'', ?Hm''.
    + exact HI''.
    + exact Hd.
    + intros u l Hl. apply In_aset in Hl as [[= <- _]|Hl]; [split; [lia|exact Hvn]|].
      destruct (Hseq u l Hl) as [Hu Hn]. split; [lia|]. intros H. apply Hspec in H as [[H|H] _]; [exact (Hn H)|lia].
    + unfold seq_version. setoid_rewrite aget_aset. destruct (Z_le_gt_dec M v).
      * (* the head is v, whose seq rows were just written *)
        right. destruct (incomplete_nonempty _ _ _ _ _ _ Einc) as [r Hr].
        exists rows', r. replace (Z.max (max0 (maxv b')) v) with v by lia. rewrite Z.eqb_refl. auto.
      * (* the head stays, and its seq rows are not the ones written *)
        replace (Z.max (max0 (maxv b')) v) with M by lia. destruct (Z.eqb_spec M v); [lia|exact Hlink].
Qed.

Lemma seqrows_flat_in (m : list (Z * list srow)) r :
  In r (seqrows_flat m) <-> exists l sr, In (sr_version r, l) m /\ In sr l /\
                                         r = mkSeqRow (sr_version r) (fst (fst sr)) (snd (fst sr)) (snd sr).
Proof.
  unfold seqrows_flat. rewrite in_flat_map. split.
  - intros ([v l] & Hvl & H). apply in_map_iff in H as (sr & <- & Hsr). exists l, sr. auto.
  - intros (l & sr & Hl & Hsr & ->). exists (sr_version r, l). split; [exact Hl|].
    apply in_map_iff. exists sr. auto.
Qed.

Theorem dur_durinv st : Dur st -> DurInv (st_dbmax st) (seqrows_flat (st_seq st)) (st_rows st).
Proof.
  intros [[Hc -> HM Hrange Hpart Hkeys] Hd Hseq Hlink].
  assert (Hrow : forall r, In r (seqrows_flat (st_seq st)) ->
            1 <= sr_version r <= max0 (maxv (st_bv st)) /\ ~ mem (sr_version r) (needed (st_bv st))).
  { intros r Hr. apply seqrows_flat_in in Hr as (l & sr & Hin & _). exact (Hseq _ l Hin). }
  constructor; try assumption.
  - apply Forall_forall. intros r Hr. apply (Hrow r Hr).
  - intros r Hr. apply (Hrow r Hr).
  - intros x Hx. apply Hrange in Hx. split; [lia|].
    destruct Hlink as [Hl|(l & sr & Hg & Hsr)]; [left; lia|right].
    exists (mkSeqRow (max0 (maxv (st_bv st))) (fst (fst sr)) (snd (fst sr)) (snd sr)). split; [|cbn; lia].
    apply seqrows_flat_in. exists l, sr. cbn. split; [apply aget_In, Hg|auto].
Qed.

Definition brun (ops : list bop) : bstate := fold_left (fun st op => fst (bstep st op)) ops bstate_init.

Theorem dur_reachable ops : Forall op_ok ops -> Dur (brun ops).
Proof.
  intros Hok. apply (fold_left_inv Dur); [|exact dur_init].
  intros st op Hop HD. apply dur_step; [exact HD|exact (proj1 (Forall_forall _ _) Hok op Hop)].
Qed.

Theorem bruns_dur : forall ops st, Dur st -> Forall op_ok ops ->
  Forall (fun r => Dur (fst r) /\ out_fine (snd r)) (bruns st ops).
Proof.
  induction ops as [|op ops IH]; intros st HD Hops; [constructor|].
  apply Forall_cons_iff in Hops as [Hop Hops]. cbn [bruns].
  pose proof (dur_step st op HD Hop) as Hstep.
  constructor; [exact Hstep|]. apply IH; [apply Hstep|exact Hops].
Qed.

(* a crash after any committed step of any history: what the restart rebuilds from the durable
   rows satisfies the bookkeeping invariant with exactly the durable gap rows *)
Theorem crash_anywhere_restart_inv ops :
  Forall op_ok ops -> let st := brun ops in Inv (reload st) (st_rows st).
Proof. intros Hok st. apply from_conn_inv, dur_durinv, dur_reachable, Hok. Qed.

(* the keys of an association list increase strictly from lo on, as a Prop and for any type
   of values *)
Section Assoc.
  Context {V : Type}.
  Fixpoint ksorted (lo : Z) (m : list (Z * V)) : Prop :=
    match m with [] => True | (k, _) :: t => lo <= k /\ ksorted (k + 1) t end.
  Lemma ksorted_weaken lo lo' (m : list (Z * V)) : lo' <= lo -> ksorted lo m -> ksorted lo' m.
  Proof. destruct m as [|[k v] t]; cbn; [tauto|]. intros H [H1 H2]. split; [lia|exact H2]. Qed.
End Assoc.
