(* Threads running acquire / release sequences (Model/LockSeq.v) under mutual exclusion of every
   lock.  thr_ok: the `ordered` test of Model/WritePool.v at every point of the sequence, and the
   sequence releases what it took. *)
From Coq Require Import List ZArith Bool Lia.
From Corro Require Import Lib.ListFacts Model.WritePool Model.LockSeq Proofs.WritePoolProofs.
Import ListNotations.
Open Scope Z_scope.

Record thr := mkThr { th_rest : list lstep; th_held : list Z }.

Definition rel_lock (x : Z) (held : list Z) : list Z := filter (fun h => negb (h =? x)) held.

Definition thr_step (t : thr) : thr :=
  match th_rest t with
  | [] => t
  | Acq l :: r => mkThr r (th_held t ++ [l])
  | Rel l :: r => mkThr r (rel_lock l (th_held t))
  end.

Fixpoint end_held (a : list lstep) (held : list Z) : list Z :=
  match a with
  | [] => held
  | Acq x :: t => end_held t (held ++ [x])
  | Rel x :: t => end_held t (rel_lock x held)
  end.

Definition thr_ok (rank : Z -> Z) (t : thr) : Prop :=
  forallb (ordered rank) (points (th_rest t) (th_held t)) = true /\
  end_held (th_rest t) (th_held t) = [].

Definition enabled_in (others : list thr) (t : thr) : bool :=
  match th_rest t with
  | [] => false
  | Acq l :: _ => forallb (fun o => negb (existsb (Z.eqb l) (th_held o))) others
  | Rel _ :: _ => true
  end.

Definition work (ts : list thr) : nat := fold_right (fun t n => (length (th_rest t) + n)%nat) 0%nat ts.
Definition all_done (ts : list thr) : bool := forallb (fun t => match th_rest t with [] => true | _ => false end) ts.

Lemma thr_step_ok rank t : thr_ok rank t -> thr_ok rank (thr_step t).
Proof.
  intros [Ho He]. destruct t as [[|[l|l] r] held]; cbn in *.
  - split; assumption.
  - apply andb_true_iff in Ho as [_ Ho]. split; assumption.
  - (* rel_lock unfolds to the filter that `points` writes out *)
    split; assumption.
Qed.

Lemma work_split pre t post : work (pre ++ t :: post) = (length (th_rest t) + work (pre ++ post))%nat.
Proof. induction pre as [|p pre IH]; cbn; [reflexivity|]. unfold work in IH. lia. Qed.

Lemma all_done_false ts : all_done ts = false -> exists pre t post, ts = pre ++ t :: post /\ th_rest t <> [].
Proof.
  induction ts as [|t ts IH]; cbn; [discriminate|].
  destruct (th_rest t) eqn:E.
  - intros H. destruct (IH H) as (pre & t' & post & -> & Hne). exists (t :: pre), t', post. split; [reflexivity|exact Hne].
  - intros _. exists [], t, ts. split; [reflexivity|]. rewrite E. discriminate.
Qed.

Lemma enabled_free pre t post : th_rest t <> [] ->
  (forall l r, th_rest t = Acq l :: r -> ~ In l (flat_map th_held (pre ++ t :: post))) ->
  enabled_in (pre ++ post) t = true.
Proof.
  intros Hne Hfree. unfold enabled_in. destruct (th_rest t) as [|[l|l] r]; [contradiction| |reflexivity].
  apply forallb_forall. intros o Ho. destruct (existsb (Z.eqb l) (th_held o)) eqn:Ex; [|reflexivity].
  apply (existsb_eqb Z.eqb Z.eqb_eq) in Ex as Hl'.
  destruct (Hfree l r eq_refl). apply in_flat_map. exists o. split; [|exact Hl'].
  apply in_app_iff in Ho as [Ho|Ho]; apply in_app_iff; [left|right; right]; exact Ho.
Qed.

Theorem ordered_threads_progress (rank : Z -> Z) (ts : list thr) :
  Forall (thr_ok rank) ts -> all_done ts = false ->
  exists pre t post, ts = pre ++ t :: post /\ enabled_in (pre ++ post) t = true.
Proof.
  intros Hok Hnd. rewrite Forall_forall in Hok.
  destruct (flat_map th_held ts) as [|h0 hs] eqn:EH.
  - (* nobody holds anything: any thread with work left will do *)
    destruct (all_done_false ts Hnd) as (pre & t & post & -> & Hne).
    exists pre, t, post. split; [reflexivity|]. apply enabled_free; [exact Hne|]. rewrite EH. intros l r _ [].
  - (* a holder of a top-ranked lock has work left (it is balanced), and what it takes next ranks higher *)
    destruct (top_holder th_held rank ts) as (t & top & Ht & Htop & Hfree); [rewrite EH; discriminate|].
    destruct (in_split _ _ Ht) as (pre & post & ->).
    exists pre, t, post. split; [reflexivity|]. destruct (Hok t Ht) as [Hord Hend].
    apply enabled_free.
    + (* balanced and finished, it would hold nothing; but it holds top *)
      intros E. rewrite E in Hend. cbn in Hend. rewrite Hend in Htop. destruct Htop.
    + intros l r E. apply Hfree. rewrite E in Hord.
      apply andb_true_iff in Hord as [Ho _]. cbn in Ho. rewrite forallb_forall in Ho.
      apply Z.ltb_lt, Ho, Htop.
Qed.

Theorem ordered_threads_step (rank : Z -> Z) pre t post :
  Forall (thr_ok rank) (pre ++ t :: post) -> enabled_in (pre ++ post) t = true ->
  Forall (thr_ok rank) (pre ++ thr_step t :: post) /\
  (work (pre ++ thr_step t :: post) + 1 = work (pre ++ t :: post))%nat.
Proof.
  intros Hok Hen. split.
  - apply Forall_app in Hok as [Hp Hq]. inversion Hq as [|? ? Ht Hpost]; subst.
    apply Forall_app. split; [exact Hp|]. constructor; [apply thr_step_ok; exact Ht|exact Hpost].
  - rewrite !work_split. unfold thr_step. unfold enabled_in in Hen.
    destruct (th_rest t) as [|[l|l] r]; [discriminate| |]; cbn; lia.
Qed.

Inductive runs : list thr -> list thr -> Prop :=
| runs_refl ts : runs ts ts
| runs_step pre t post ts' : enabled_in (pre ++ post) t = true ->
    runs (pre ++ thr_step t :: post) ts' -> runs (pre ++ t :: post) ts'.

Theorem ordered_threads_complete (rank : Z -> Z) : forall n ts,
  work ts = n -> Forall (thr_ok rank) ts -> exists ts', runs ts ts' /\ all_done ts' = true.
Proof.
  induction n as [n IH] using lt_wf_ind. intros ts Hw Hok.
  destruct (all_done ts) eqn:Hd.
  - exists ts. split; [constructor|exact Hd].
  - destruct (ordered_threads_progress rank ts Hok Hd) as (pre & t & post & -> & Hen).
    destruct (ordered_threads_step rank pre t post Hok Hen) as [Hok' Hw'].
    destruct (IH (work (pre ++ thr_step t :: post)) ltac:(lia) _ eq_refl Hok') as (ts' & Hr & Hd').
    exists ts'. split; [econstructor; eassumption|exact Hd'].
Qed.
