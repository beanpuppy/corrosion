From Coq Require Import List ZArith Bool Lia.
From Corro Require Import Model.Crdt.
Import ListNotations.
Open Scope Z_scope.

Lemma dget_dset d k k' v : dget k' (dset k v d) = if k' =? k then Some v else dget k' d.
Proof.
  induction d as [|[k0 v0] d IH]; cbn; [reflexivity|].
  destruct (Z.eqb_spec k k0) as [->|Hne]; [cbn; destruct (k' =? k0); reflexivity|].
  destruct (k <? k0); cbn; [reflexivity|]. rewrite IH.
  destruct (Z.eqb_spec k' k0) as [->|_]; [|reflexivity]. destruct (Z.eqb_spec k0 k); [congruence|reflexivity].
Qed.

(* what merge does to the row it touches, as a function of that row's state *)
Definition merge_row (o : option rowst) (r : rec) : option rowst :=
  let lcl := local_cl o in
  if r_cl r <? lcl then o
  else if Z.even (r_cl r) then
    if r_cl r =? lcl then o else Some (mkRow (r_cl r) (Some (rclk r)) None)
  else if r_sent r then
    if r_cl r =? lcl then o
    else Some (mkRow (r_cl r) (Some (rclk r))
                 (match o with
                  | Some s => match rw_col s with Some c => Some (mkCell (c_val c) 0 (c_clk c)) | None => None end
                  | None => None end))
  else if lcl <? r_cl r then
    Some (mkRow (r_cl r) (if r_cl r =? 1 then None else Some (rclk r)) (Some (mkCell (r_val r) (r_colv r) (rclk r))))
  else match o with
       | None => None
       | Some s => if cid_wins (rw_col s) r
                   then Some (mkRow (rw_cl s) (rw_sent s) (Some (mkCell (r_val r) (r_colv r) (rclk r))))
                   else o
       end.

Lemma merge_dset d r :
  (merge d r = d /\ merge_row (dget (r_row r) d) r = dget (r_row r) d) \/
  exists s, merge_row (dget (r_row r) d) r = Some s /\ merge d r = dset (r_row r) s d.
Proof.
  unfold merge, merge_row. generalize (dget (r_row r) d). intros o.
  destruct (r_cl r <? local_cl o); [auto|].
  destruct (Z.even (r_cl r)); [destruct (r_cl r =? local_cl o); eauto|].
  destruct (r_sent r); [destruct (r_cl r =? local_cl o); eauto|].
  destruct (local_cl o <? r_cl r); [eauto|].
  destruct o as [s|]; [|auto]. destruct (cid_wins (rw_col s) r); eauto.
Qed.

Lemma merge_get d r k :
  dget k (merge d r) = if k =? r_row r then merge_row (dget (r_row r) d) r else dget k d.
Proof.
  destruct (merge_dset d r) as [[-> Ho]|[s [Ho ->]]].
  - destruct (Z.eqb_spec k (r_row r)) as [->|_]; [symmetry; exact Ho|reflexivity].
  - rewrite dget_dset, Ho. reflexivity.
Qed.

Definition cell_of (r : rec) : cell := mkCell (r_val r) (r_colv r) (rclk r).

(* the row state a record of a newer generation leaves, whatever the row held *)
Definition fresh_row (o : option rowst) (r : rec) : rowst :=
  if Z.even (r_cl r) then mkRow (r_cl r) (Some (rclk r)) None
  else if r_sent r then
    mkRow (r_cl r) (Some (rclk r))
          (match o with
           | Some s => match rw_col s with Some c => Some (mkCell (c_val c) 0 (c_clk c)) | None => None end
           | None => None end)
  else mkRow (r_cl r) (if r_cl r =? 1 then None else Some (rclk r)) (Some (cell_of r)).

(* merge_row is read off by where the record's causal length stands: below the row's, above it,
   or at it *)
Lemma merge_row_below o r : r_cl r < local_cl o -> merge_row o r = o.
Proof. intros H. unfold merge_row. apply Z.ltb_lt in H. rewrite H. reflexivity. Qed.

Lemma merge_row_above o r : local_cl o < r_cl r -> merge_row o r = Some (fresh_row o r).
Proof.
  intros H. unfold merge_row, fresh_row.
  destruct (Z.ltb_spec (r_cl r) (local_cl o)); [lia|].
  destruct (Z.eqb_spec (r_cl r) (local_cl o)); [lia|].
  destruct (Z.ltb_spec (local_cl o) (r_cl r)); [|lia].
  destruct (Z.even (r_cl r)); [reflexivity|]. destruct (r_sent r); reflexivity.
Qed.

(* within the row's generation only a value record of a live row is looked at *)
Lemma merge_row_level s r : r_cl r = rw_cl s ->
  merge_row (Some s) r =
  Some (if Z.even (r_cl r) || r_sent r then s
        else if cid_wins (rw_col s) r then mkRow (rw_cl s) (rw_sent s) (Some (cell_of r)) else s).
Proof.
  intros H. unfold merge_row. cbn [local_cl]. rewrite H, Z.ltb_irrefl, Z.eqb_refl.
  destruct (Z.even (rw_cl s)); [reflexivity|]. destruct (r_sent r); [reflexivity|].
  cbn [orb]. destruct (cid_wins (rw_col s) r); reflexivity.
Qed.

(* [local_cl None] is 0; written so, the hypothesis is the middle case of the trichotomy of
   r_cl r against local_cl o as its three users meet it *)
Lemma merge_row_level_none r : r_cl r = local_cl None -> merge_row None r = None.
Proof. intros H. unfold merge_row. rewrite H. reflexivity. Qed.

Lemma fresh_row_cl o r : rw_cl (fresh_row o r) = r_cl r.
Proof. unfold fresh_row. destruct (Z.even (r_cl r)); [reflexivity|]. destruct (r_sent r); reflexivity. Qed.

Lemma cid_wins_own r : cid_wins (Some (cell_of r)) r = false.
Proof. unfold cid_wins. cbn. rewrite !Z.ltb_irrefl. reflexivity. Qed.

Theorem merge_row_idem o r : merge_row (merge_row o r) r = merge_row o r.
Proof.
  assert (Hlevel : forall s, r_cl r = rw_cl s -> merge_row (merge_row (Some s) r) r = merge_row (Some s) r).
  { intros s Hs. rewrite (merge_row_level s r Hs).
    destruct (Z.even (r_cl r) || r_sent r) eqn:E; [rewrite merge_row_level, E by exact Hs; reflexivity|].
    destruct (cid_wins (rw_col s) r) eqn:Ew.
    - rewrite merge_row_level, E by exact Hs. cbn [rw_col]. rewrite cid_wins_own. reflexivity.
    - rewrite merge_row_level, E, Ew by exact Hs. reflexivity. }
  destruct (Z.lt_trichotomy (r_cl r) (local_cl o)) as [H|[H|H]].
  - rewrite !(merge_row_below o r H). reflexivity.
  - destruct o as [s|]; [apply Hlevel, H|rewrite !(merge_row_level_none r H); reflexivity].
  - rewrite (merge_row_above o r H).
    rewrite merge_row_level by (symmetry; apply fresh_row_cl).
    destruct (Z.even (r_cl r) || r_sent r) eqn:E; [reflexivity|]. apply orb_false_iff in E. destruct E as [Ee Es].
    unfold fresh_row. rewrite Ee, Es. cbn [rw_col]. rewrite cid_wins_own. reflexivity.
Qed.

Theorem merge_idem d r k : dget k (merge (merge d r) r) = dget k (merge d r).
Proof.
  rewrite !merge_get. destruct (k =? r_row r); [|reflexivity].
  rewrite Z.eqb_refl. apply merge_row_idem.
Qed.

Theorem merge_comm_rows d r1 r2 k : r_row r1 <> r_row r2 ->
  dget k (merge (merge d r1) r2) = dget k (merge (merge d r2) r1).
Proof.
  intros Hne. rewrite !merge_get.
  destruct (Z.eqb_spec (r_row r2) (r_row r1)); [congruence|].
  destruct (Z.eqb_spec (r_row r1) (r_row r2)); [congruence|].
  destruct (Z.eqb_spec k (r_row r2)); destruct (Z.eqb_spec k (r_row r1)); congruence.
Qed.

Lemma merge_row_cl o r : local_cl (merge_row o r) = Z.max (local_cl o) (r_cl r).
Proof.
  destruct (Z.lt_trichotomy (r_cl r) (local_cl o)) as [H|[H|H]].
  - rewrite merge_row_below by exact H. lia.
  - destruct o as [s|]; [|rewrite (merge_row_level_none r H); lia]. cbn [local_cl] in *.
    rewrite merge_row_level by exact H.
    destruct (Z.even (r_cl r) || r_sent r); [cbn; lia|]. destruct (cid_wins (rw_col s) r); cbn; lia.
  - rewrite merge_row_above by exact H. cbn [local_cl]. rewrite fresh_row_cl. lia.
Qed.

Theorem merge_cl_monotone o r : local_cl o <= local_cl (merge_row o r).
Proof. rewrite merge_row_cl. lia. Qed.

(* no value from nowhere: the value a row shows after a merge is the value it
   showed before or the value carried by the merged record *)
Theorem merge_value_origin o r s' c' :
  merge_row o r = Some s' -> rw_col s' = Some c' ->
  c_val c' = r_val r \/ exists s c, o = Some s /\ rw_col s = Some c /\ c_val c = c_val c'.
Proof.
  intros Hm Hc. destruct (Z.lt_trichotomy (r_cl r) (local_cl o)) as [H|[H|H]].
  - rewrite merge_row_below in Hm by exact H. right. eauto.
  - destruct o as [s|]; [|rewrite (merge_row_level_none r H) in Hm; discriminate].
    rewrite merge_row_level in Hm by exact H. injection Hm as <-.
    destruct (Z.even (r_cl r) || r_sent r); [right; eauto|].
    destruct (cid_wins (rw_col s) r); [left|right; eauto]. injection Hc as <-. reflexivity.
  - rewrite merge_row_above in Hm by exact H. injection Hm as <-. unfold fresh_row in Hc.
    destruct (Z.even (r_cl r)); [discriminate|].
    destruct (r_sent r); [right|left; injection Hc as <-; reflexivity].
    (* a re-insert marker keeps the value of the cell it zeroes *)
    destruct o as [s|]; [|discriminate]. destruct (rw_col s) as [c|] eqn:Ec; [|discriminate].
    injection Hc as <-. exists s, c. auto.
Qed.

(* A data record whose causal length is above the local one (and not 1) resurrects the row:
   the model -- as the real extension, checked by the crdtsim layer of C01 on the clock rows'
   site/db_version/seq -- stamps BOTH the sentinel it creates and the column clock with the
   position (site, db_version, seq) of that one record. *)
Lemma resurrect_two_records_one_position d r :
  r_sent r = false -> Z.odd (r_cl r) = true -> r_cl r <> 1 ->
  local_cl (dget (r_row r) d) < r_cl r ->
  exists c, dget (r_row r) (merge d r) = Some (mkRow (r_cl r) (Some (rclk r)) (Some c)) /\
            c_clk c = rclk r /\ c_val c = r_val r /\ c_colv c = r_colv r.
Proof.
  intros Hs Ho H1 Hl. exists (cell_of r). split; [|auto].
  rewrite merge_get, Z.eqb_refl, merge_row_above by exact Hl. unfold fresh_row.
  rewrite <- Z.negb_odd, Ho, Hs. apply Z.eqb_neq in H1. rewrite H1. reflexivity.
Qed.
