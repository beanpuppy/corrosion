(* Row level: which merged records does a row still attribute a clock row to?  Read off the row
   invariant of Proofs/ConvergeProofs.v; the order of merging plays no part. *)
From Coq Require Import List ZArith Bool Lia.
From Corro Require Import Model.Crdt Model.CrdtSpec Model.Cluster Proofs.CrdtProofs Proofs.ConvergeProofs.
Import ListNotations.
Open Scope Z_scope.

Lemma clk_eqb_refl k : clk_eqb k k = true.
Proof. unfold clk_eqb. rewrite !Z.eqb_refl. reflexivity. Qed.

Lemma rec_eqb_eq r r' : rec_eqb r r' = true -> r = r'.
Proof.
  destruct r, r'. unfold rec_eqb. cbn. intros H.
  (* from the last field back to the third they are integers; one at a time, f_equal on eight is slow *)
  repeat (apply andb_true_iff in H as [H E]; apply Z.eqb_eq in E; subst).
  apply andb_true_iff in H as [H E]. apply Z.eqb_eq in H. apply Bool.eqb_prop in E. subst. reflexivity.
Qed.

Lemma rec_eqb_refl r : rec_eqb r r = true.
Proof. unfold rec_eqb. rewrite !Z.eqb_refl, Bool.eqb_reflx. reflexivity. Qed.

Definition stL (Q : list rec) : option rowst := fold_left merge_row Q None.

(* a re-insert marker of the newest generation: its value record decides *)
Definition pending (Q : list rec) (r : rec) : Prop :=
  r_sent r = true /\ Z.odd (r_cl r) = true /\ r_cl r = maxcl Q.

(* `pairwise tie Q`: no two records of Q are tied *)
Definition pairwise (f : rec -> rec -> bool) (Q : list rec) : Prop :=
  forall r r', In r Q -> In r' Q -> f r r' = false.

Lemma pairwise_of_bool f rs :
  forallb (fun r => forallb (fun r' => negb (f r r')) rs) rs = true -> pairwise f rs.
Proof.
  intros H r r' Hr Hr'. rewrite forallb_forall in H. specialize (H r Hr). rewrite forallb_forall in H.
  specialize (H r' Hr'). apply negb_true_iff in H. exact H.
Qed.

Lemma pairwise_incl f (P Q : list rec) : incl P Q -> pairwise f Q -> pairwise f P.
Proof. intros Hi H r r' Hr Hr'. apply H; apply Hi; assumption. Qed.

Lemma untied Q k r r' :
  (forall r, In r Q -> r_row r = k) -> pairwise tie Q -> In r Q -> In r' Q -> r_cl r = r_cl r' ->
  r = r' \/ (Z.even (r_cl r) = false /\
             (is_data r = true -> is_data r' = true -> key3_lt r r' = true \/ key3_lt r' r = true)).
Proof.
  intros Hrow Htie Hr Hr' Hc. specialize (Htie r r' Hr Hr'). unfold tie in Htie.
  rewrite (Hrow r Hr), (Hrow r' Hr'), Hc, !Z.eqb_refl in Htie. rewrite Hc.
  destruct (rec_eqb r r') eqn:E; [left; apply rec_eqb_eq, E|right].
  apply orb_false_iff in Htie. destruct Htie as [He Ht]. split; [exact He|]. intros Hd Hd'.
  (* what is left of tie is "the key3 of r and r' are equal", and it is false *)
  rewrite Hd, Hd' in Ht. rewrite !key3_spec.
  destruct (Z.eqb_spec (r_colv r) (r_colv r')); [|lia].
  destruct (Z.eqb_spec (r_val r) (r_val r')); [|lia].
  destruct (Z.eqb_spec (r_site r) (r_site r')); [discriminate|lia].
Qed.

(* every merged record still owns a clock row, or is strictly below another merged record, or
   is a marker of the newest merged generation -- whatever the order of merging *)
Theorem accounted (Q : list rec) k r :
  (forall r, In r Q -> r_row r = k) -> forallb rec_ok Q = true -> pairwise tie Q -> In r Q ->
  live_row (stL Q) r = true \/ (exists r', In r' Q /\ sdom r r' = true) \/ pending Q r.
Proof.
  intros Hrow Hok Htie Hr.
  (* both are stated on the fold that stL abbreviates *)
  pose proof (RowInv_all Q Hok) as HI. pose proof (merged_cl Q) as HM. fold (stL Q) in HI, HM.
  destruct (stL Q) as [s|]; [|cbn in HI; subst Q; destruct Hr].
  destruct HI as [w [Hw [Hmax [Hcw Hst]]]]. cbn [local_cl] in HM.
  pose proof (Hmax r Hr) as Hwr. unfold live_row. rewrite orb_comm, not_data.
  destruct (Z.lt_trichotomy (r_cl r) (r_cl w)) as [Hlt|[Hc|Hgt]].
  { right. left. exists w. split; [exact Hw|apply sdom_cl, Hlt]. }
  2:{ rewrite (sdom_cl w r Hgt) in Hwr. discriminate. }
  symmetry in Hc. destruct (is_data r) eqn:Hd; cbn [negb].
  - (* a value record of the owner's generation: the owner is one too, and not below it *)
    rewrite sdom_level, Hd in Hwr by assumption. apply orb_false_iff in Hwr. destruct Hwr as [Hdw Hk].
    apply negb_false_iff in Hdw. rewrite Hdw in Hst. rewrite Hst.
    destruct (untied Q k w r Hrow Htie Hw Hr Hc) as [->|[_ Hkk]]; [left; apply clk_eqb_refl|right; left].
    exists w. split; [exact Hw|]. rewrite sdom_level, Hd, Hdw by auto.
    destruct (Hkk Hdw Hd) as [H|H]; [congruence|exact H].
  - destruct (Z.even (r_cl r)) eqn:Eev.
    + (* a delete generation consists of one record, and the sentinel clock is its own *)
      left. destruct (untied Q k w r Hrow Htie Hw Hr Hc) as [->|[H _]]; [|congruence].
      rewrite Hd, Eev in Hst. destruct Hst as [_ ->]. apply clk_eqb_refl.
    + right. right. unfold is_data in Hd. rewrite <- Z.negb_even, Eev, andb_true_r in Hd.
      split; [apply negb_false_iff, Hd|]. split; [rewrite <- Z.negb_even, Eev; reflexivity|congruence].
Qed.

(* that clock positions are unique is assumed and not used: the invariant names the cell's writer *)
Theorem not_live_is_below (Q : list rec) k r :
  (forall r, In r Q -> r_row r = k) -> forallb rec_ok Q = true ->
  pairwise tie Q -> pairwise clk_clash Q ->
  In r Q -> live_row (stL Q) r = false ->
  (exists r', In r' Q /\ sdom r r' = true) \/ pending Q r.
Proof.
  intros Hrow Hok Htie _ Hr Hl. destruct (accounted Q k r Hrow Hok Htie Hr) as [H|H]; [congruence|exact H].
Qed.
