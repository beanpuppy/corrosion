From Coq Require Import List ZArith Bool Lia.
From Corro Require Import Lib.Ivl Model.Book Model.BookOps Model.Needs Proofs.BookProofs Proofs.NeedsProofs.
Import ListNotations.
Open Scope Z_scope.

(* the SyncStateV1 of a node, restricted to one origin actor a *)
Definition ss_of (me a : Z) (o : option adv) : sstate :=
  match o with
  | None => mkSstate me [] [] []
  | Some x => mkSstate me [(a, a_head x)] [(a, a_need x)] [(a, a_partial x)]
  end.

Lemma wf_ss_of me a b rs : Inv b rs -> wf_state (ss_of me a (sync_actor b)).
Proof.
  intros [HcN Hrows HM Hrange Hpart Hkeys]. unfold sync_actor.
  destruct (maxv b) as [head|] eqn:Em; cbn [ss_of].
  - constructor; cbn [ss_heads ss_need ss_partial a_head a_need a_partial].
    + unfold uniq_keys. constructor; [intros []|constructor].
    + intros a0 h [H|[]]. injection H as _ <-. exact HM.
    + intros a0 ns H. cbn [zget] in H. destruct (a0 =? a); [|discriminate]. injection H as <-.
      apply canonical_ranges_ok, HcN.
    + intros a0 ps H. cbn [zget] in H. destruct (a0 =? a); [|discriminate]. injection H as <-.
      unfold uniq_keys. rewrite map_map.
      pose proof (keys_sorted_filter (fun kv => negb (is_complete (snd kv))) (partials b) 1 Hkeys) as Hf.
      exact (proj1 (keys_sorted_nodup _ _ Hf)).
  - constructor; cbn; [constructor|intros a0 h []|intros a0 ns H; discriminate|intros a0 ps H; discriminate].
Qed.

Lemma held_peer_holds me a b rs v :
  Inv b rs -> 1 <= v -> classify b v = Held -> peer_holds (ss_of me a (sync_actor b)) a v.
Proof.
  intros HI Hv Hc. destruct (adv_exact b rs v HI Hv) as [Hadv _]. rewrite Hc in Hadv.
  unfold adv_class in Hadv. destruct (sync_actor b) as [x|]; [|discriminate].
  destruct (negb (v <=? a_head x)) eqn:E1; [discriminate|]. apply negb_false_iff, Z.leb_le in E1.
  destruct (memb v (a_need x)) eqn:E2; [discriminate|].
  destruct (aget v (a_partial x)) as [q|] eqn:E3; [discriminate|].
  exists (a_head x). cbn [ss_of ss_heads ss_need ss_partial zget]. rewrite Z.eqb_refl.
  split; [left; reflexivity|]. split; [lia|]. split.
  - intros (ns & [= <-] & Hm). apply memb_iff in Hm. congruence.
  - intros (ps & [= <-] & q & Hin). exact (aget_none_notin _ _ E3 q Hin).
Qed.

Lemma ss_of_actor me a o : ss_actor (ss_of me a o) = me.
Proof. destruct o; reflexivity. Qed.

Theorem request_covers_what_peer_holds meA meB a bA rsA bB rsB v :
  Inv bA rsA -> Inv bB rsB -> a <> meA -> 1 <= v ->
  classify bB v = Held ->
  (classify bA v = Needed \/ classify bA v = Beyond) ->
  req_full (compute_available_needs (ss_of meA a (sync_actor bA)) (ss_of meB a (sync_actor bB))) a v.
Proof.
  intros HIA HIB Hne Hv HB HA.
  apply needs_complete_full.
  - apply (wf_ss_of _ _ _ rsB), HIB.
  - rewrite ss_of_actor. exact Hne.
  - apply (held_peer_holds _ _ _ rsB); assumption.
  - (* we advertise v as lacking: head and needed set go into the advertisement as they are *)
    pose proof (classify_spec bA v) as Hs. unfold we_lack, sync_actor.
    destruct (maxv bA) as [h|]; cbn [ss_of ss_heads ss_need zget a_head a_need max0] in *; [|left; reflexivity].
    rewrite Z.eqb_refl. right. destruct HA as [HA|HA]; rewrite HA in Hs.
    + right. exists (needed bA). split; [reflexivity|exact Hs].
    + left. exists h. split; [reflexivity|apply Hs].
Qed.

Theorem partial_request_is_exactly_the_missing_seqs meA meB a bA rsA bB rsB v p q :
  Inv bA rsA -> Inv bB rsB -> a <> meA -> 1 <= v ->
  classify bB v = Held -> classify bA v = PartialC -> aget v (partials bA) = Some p ->
  (req_seq (compute_available_needs (ss_of meA a (sync_actor bA)) (ss_of meB a (sync_actor bB))) a v q
   <-> mem q (gaps 0 (p_last p) (p_seqs p))).
Proof.
  intros HIA HIB Hne Hv HB HA Hp.
  destruct (adv_exact bA rsA v HIA Hv) as [_ Hpart].
  destruct (Hpart HA) as (p' & Hp' & y & Hy & Hg). rewrite Hp in Hp'. injection Hp' as <-.
  pose proof (wf_ss_of meA a bA rsA HIA) as HwfA. rewrite Hy in *.
  assert (Hz : zget a (ss_partial (ss_of meA a (Some y))) = Some (a_partial y))
    by (cbn [ss_of ss_partial zget]; rewrite Z.eqb_refl; reflexivity).
  apply (needs_partial_held _ _ a v (gaps 0 (p_last p) (p_seqs p)) (a_partial y)).
  - apply (wf_ss_of _ _ _ rsB), HIB.
  - rewrite ss_of_actor. exact Hne.
  - exact Hz.
  - apply (wf_partial_keys _ HwfA a), Hz.
  - apply aget_In, Hg.
  - apply (held_peer_holds _ _ _ rsB); assumption.
Qed.
