From Coq Require Import List ZArith Lia.
From Corro Require Import Lib.ListFacts Model.Backup.
Import ListNotations.
Open Scope Z_scope.

Lemma site_of_in o x (s : sites) : site_of o s = Some x -> In (o, x) s.
Proof.
  induction s as [|[o' x'] t IH]; cbn; [discriminate|]. destruct (Z.eqb_spec o' o) as [->|_].
  - intros H. injection H as ->. left. reflexivity.
  - intros H. right. exact (IH H).
Qed.

Lemma ord_of_in o x (s : sites) : ord_of x s = Some o -> In (o, x) s.
Proof.
  induction s as [|[o' x'] t IH]; cbn; [discriminate|]. destruct (Z.eqb_spec x' x) as [->|_].
  - intros H. injection H as ->. left. reflexivity.
  - intros H. right. exact (IH H).
Qed.

Lemma ord_of_none x (s : sites) : ord_of x s = None -> forall o, ~ In (o, x) s.
Proof.
  induction s as [|[o' x'] t IH]; cbn; intros H o Hi; [exact Hi|]. destruct (Z.eqb_spec x' x) as [->|E]; [discriminate|].
  destruct Hi as [Hi|Hi]; [injection Hi as _ ->; exact (E eq_refl)|exact (IH H o Hi)].
Qed.

Lemma site_of_unique (s : sites) o x : NoDup (map fst s) -> In (o, x) s -> site_of o s = Some x.
Proof.
  induction s as [|[a b] t IH]; cbn; intros Hn Hi; [contradiction|].
  apply NoDup_cons_iff in Hn as [Hnot Hn']. destruct Hi as [Hi|Hi].
  - injection Hi as -> ->. rewrite Z.eqb_refl. reflexivity.
  - destruct (Z.eqb_spec a o) as [->|_]; [|exact (IH Hn' Hi)].
    exfalso. apply Hnot. exact (in_map fst t (o, x) Hi).
Qed.

Lemma ord_of_unique (s : sites) o x : NoDup (map snd s) -> In (o, x) s -> ord_of x s = Some o.
Proof.
  intros Hn Hi. destruct (ord_of x s) as [k|] eqn:E; [|destruct (ord_of_none _ _ E o Hi)].
  injection (NoDup_map_inj snd s _ _ Hn (ord_of_in _ _ _ E) Hi eq_refl) as ->. reflexivity.
Qed.

Lemma site_of_app o s1 s2 : site_of o (s1 ++ s2) = match site_of o s1 with Some x => Some x | None => site_of o s2 end.
Proof. induction s1 as [|[o' x] t IH]; cbn; [reflexivity|]. destruct (o' =? o); [reflexivity|exact IH]. Qed.

Lemma site_of_filter f o (s : sites) :
  (forall y, site_of o s = Some y -> f (o, y) = true) -> site_of o (filter f s) = site_of o s.
Proof.
  induction s as [|[o' x] t IH]; cbn; [reflexivity|]. destruct (Z.eqb_spec o' o) as [->|E]; intros Hf.
  - rewrite (Hf x eq_refl). cbn. rewrite Z.eqb_refl. reflexivity.
  - destruct (f (o', x)); cbn; [destruct (Z.eqb_spec o' o); [contradiction|]|]; exact (IH Hf).
Qed.

Lemma site_of_filter_ord_ne o z (s : sites) : o <> z ->
  site_of o (filter (fun p => negb (fst p =? z)) s) = site_of o s.
Proof. intros Hne. apply site_of_filter. intros y _. cbn. destruct (Z.eqb_spec o z); [contradiction|reflexivity]. Qed.

Lemma site_of_filter_site_ne o x y (s : sites) : site_of o s = Some y -> y <> x ->
  site_of o (filter (fun p => negb (snd p =? x)) s) = Some y.
Proof.
  intros H Hne. rewrite site_of_filter; [exact H|]. rewrite H. intros y' Hy. injection Hy as <-.
  cbn. destruct (Z.eqb_spec y x); [contradiction|reflexivity].
Qed.

Lemma site_of_0_filtered (s : sites) : site_of 0 (filter (fun p => negb (fst p =? 0)) s) = None.
Proof.
  destruct (site_of 0 _) as [x|] eqn:E; [|reflexivity].
  apply site_of_in, filter_In in E as [_ E]. discriminate E.
Qed.

Lemma fold_max_ge (s : sites) : forall m, let M := fold_left (fun m (p : Z * Z) => Z.max m (fst p)) s m in
  m <= M /\ forall p, In p s -> fst p <= M.
Proof.
  induction s as [|q t IH]; intros m; cbn; [split; [lia|intros p []]|].
  destruct (IH (Z.max m (fst q))) as [H1 H2]. split; [lia|]. intros p [<-|Hp]; [lia|exact (H2 p Hp)].
Qed.

Lemma fresh_ord_above seq s : 0 < fresh_ord seq s /\ forall p, In p s -> fst p < fresh_ord seq s.
Proof.
  unfold fresh_ord, max_ord. destruct (fold_max_ge s 0) as [H1 H2]. split; [lia|].
  intros p Hp. specialize (H2 p Hp). lia.
Qed.

Lemma site_of_none_fresh seq s : site_of (fresh_ord seq s) s = None.
Proof.
  destruct (site_of _ s) as [x|] eqn:E; [|reflexivity].
  apply site_of_in, (proj2 (fresh_ord_above seq s)) in E. cbn in E. lia.
Qed.

(* `corrosion backup`: every clock row keeps its author, the snapshot has no "self" row and no
   node-local rows *)
Theorem backup_preserves_authors seq d d' :
  backup seq d = Some d' ->
  b_clock d' = rewrite 0 (fresh_ord seq (b_sites d)) (b_clock d) /\
  (forall r, author d r <> None ->
     author d' (if snd r =? 0 then (fst r, fresh_ord seq (b_sites d)) else r) = author d r) /\
  site_of 0 (b_sites d') = None /\ b_members d' = [] /\ b_subs d' = [].
Proof.
  intros Hb. unfold backup in Hb. destruct (site_of 0 (b_sites d)) as [self|] eqn:Es; [|discriminate].
  injection Hb as <-. cbn [b_clock b_sites b_members b_subs].
  set (n := fresh_ord seq (b_sites d)).
  assert (Hn : 0 < n) by apply fresh_ord_above.
  assert (Hfresh : site_of n (b_sites d) = None) by apply site_of_none_fresh.
  split; [reflexivity|]. split; [|split; [|split; reflexivity]].
  - (* self's rows are found at the appended row, the others where they were *)
    intros [c o] Hknown. unfold author in *. cbn [snd fst b_sites] in *.
    destruct (Z.eqb_spec o 0) as [->|E]; cbn [snd]; rewrite site_of_app, site_of_filter_ord_ne by lia.
    + rewrite Hfresh, Es. cbn. rewrite Z.eqb_refl. reflexivity.
    + destruct (site_of o (b_sites d)); [reflexivity|contradiction].
  - rewrite site_of_app, site_of_0_filtered. cbn. destruct (Z.eqb_spec n 0); [lia|reflexivity].
Qed.

Lemma nodupz_sound l : nodupz l = true -> NoDup l.
Proof. apply nodupb_NoDup. intros [|x t]; reflexivity. Qed.

(* restoring a snapshot that has no "self" row (what `backup` produces) while keeping the actor
   id x: every clock row keeps its author; the rows authored by x become "self" *)
Theorem restore_preserves_authors x snap :
  site_of 0 (b_sites snap) = None ->
  nodupz (map fst (b_sites snap)) = true -> nodupz (map snd (b_sites snap)) = true ->
  let d' := restore (Some x) snap in
  site_of 0 (b_sites d') = Some x /\
  forall r, author snap r <> None ->
    author d' (match ord_of x (b_sites snap) with
               | Some k => if snd r =? k then (fst r, 0) else r
               | None => r end) = author snap r.
Proof.
  intros H0 Hno Hns d'. apply nodupz_sound in Hno. apply nodupz_sound in Hns.
  set (s' := (0, x) :: filter (fun p => negb (fst p =? 0)) (filter (fun p => negb (snd p =? x)) (b_sites snap))).
  assert (Hs' : b_sites d' = s').
  { unfold d', restore. destruct (ord_of x (b_sites snap)) as [k|]; [destruct (k =? 0)|]; reflexivity. }
  unfold author. rewrite Hs'. split; [cbn; reflexivity|].
  intros [c o] Hknown. cbn [snd fst] in *.
  destruct (site_of o (b_sites snap)) as [y|] eqn:Eo; [|contradiction].
  assert (Ho : o <> 0) by congruence.
  (* the row of o survives both deletions unless its site is x, and then o is x's ordinal *)
  assert (Hother : ord_of x (b_sites snap) <> Some o -> site_of o s' = Some y).
  { intros Hk. cbn [s' site_of]. destruct (Z.eqb_spec 0 o); [lia|].
    rewrite site_of_filter_ord_ne by exact Ho. apply site_of_filter_site_ne; [exact Eo|].
    intros ->. exact (Hk (ord_of_unique _ _ _ Hns (site_of_in _ _ _ Eo))). }
  destruct (ord_of x (b_sites snap)) as [k|] eqn:Ek; [|apply Hother; discriminate].
  destruct (Z.eqb_spec o k) as [->|E]; cbn [snd]; [|apply Hother; congruence].
  rewrite (site_of_unique _ _ _ Hno (ord_of_in _ _ _ Ek)) in Eo.
  (* the row of ordinal 0 in s' is its head (0, x) *) exact Eo.
Qed.

(* a snapshot that still has a "self" row (not produced by `backup`) is re-attributed: the
   precondition above is necessary *)
Example restore_with_self_row_refuted :
  let snap := mkB [(0, 7); (1, 8)] [(100, 0); (101, 1)] [] [] in
  author snap (100, 0) = Some 7 /\ author (restore (Some 9) snap) (100, 0) = Some 9.
Proof. split; reflexivity. Qed.
