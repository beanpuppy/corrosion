From Coq Require Import List ZArith Bool Lia.
From Coq Require FinFun.
From Corro Require Import Lib.ListFacts Model.Updates.
Import ListNotations.
Open Scope Z_scope.

Lemma ukey_eqb_eq : forall a b, ukey_eqb a b = true <-> a = b.
Proof. apply (list_eqb_spec Z.eqb); [exact Z.eqb_eq|intros [|x a] [|y b]; reflexivity]. Qed.

Lemma ukey_eqbP a b : reflect (a = b) (ukey_eqb a b).
Proof. apply iff_reflect. symmetry. apply ukey_eqb_eq. Qed.

Lemma ukey_eqb_refl k : ukey_eqb k k = true.
Proof. apply ukey_eqb_eq. reflexivity. Qed.

Definition ikeys (m : imap) : list ukey := map fst m.

Lemma iget_iset k k' v m : iget k' (iset k v m) = if ukey_eqb k k' then Some v else iget k' m.
Proof.
  induction m as [|[k0 v0] t IH]; cbn; [reflexivity|].
  destruct (ukey_eqbP k0 k) as [->|Hne]; cbn; [destruct (ukey_eqb k k'); reflexivity|].
  rewrite IH. destruct (ukey_eqbP k0 k') as [->|]; [|reflexivity].
  destruct (ukey_eqbP k k'); [congruence|reflexivity].
Qed.

Lemma iget_none k m : iget k m = None <-> ~ In k (ikeys m).
Proof.
  induction m as [|[k' v'] t IH]; cbn; [split; [intros _ []|reflexivity]|].
  destruct (ukey_eqbP k' k) as [->|Hne].
  - split; [discriminate|intros H; contradiction H; left; reflexivity].
  - rewrite IH. (* tauto tries every hypothesis: Hne alone is what it needs *) clear - Hne. tauto.
Qed.

Lemma ikeys_iset k v m : ikeys (iset k v m) = ikeys m \/ (~ In k (ikeys m) /\ ikeys (iset k v m) = ikeys m ++ [k]).
Proof.
  induction m as [|[k' v'] t IH]; cbn; [right; split; [intros []|reflexivity]|].
  destruct (ukey_eqbP k' k) as [->|Hne]; cbn; [left; reflexivity|].
  destruct IH as [IH|[Hn IH]]; [left; f_equal; exact IH|right]. split; [tauto|f_equal; exact IH].
Qed.

Lemma ikeys_iset_nodup k v m : NoDup (ikeys m) -> NoDup (ikeys (iset k v m)).
Proof.
  intros Hn. destruct (ikeys_iset k v m) as [H|[Hni H]]; rewrite H; [exact Hn|].
  apply NoDup_snoc; assumption.
Qed.

Lemma ikeys_iset_incl k v m x : In x (ikeys (iset k v m)) -> x = k \/ In x (ikeys m).
Proof.
  destruct (ikeys_iset k v m) as [H|[_ H]]; rewrite H; [auto|]. rewrite in_app_iff. intros [Hx|[Hx|[]]]; auto.
Qed.

Lemma iget_in k v m : NoDup (ikeys m) -> In (k, v) m -> iget k m = Some v.
Proof.
  induction m as [|[k' v'] t IH]; cbn; intros Hn Hi; [contradiction|].
  apply NoDup_cons_iff in Hn as [Hnot Hn']. destruct Hi as [Hi|Hi].
  - injection Hi as -> ->. rewrite ukey_eqb_refl. reflexivity.
  - destruct (ukey_eqbP k' k) as [->|]; [|apply IH; assumption].
    contradiction Hnot. exact (in_map fst t (k, v) Hi).
Qed.

(* the greatest causal length received for k *)
Fixpoint maxcl (k : ukey) (seen : list (ukey * Z)) (acc : option Z) : option Z :=
  match seen with
  | [] => acc
  | (k', c) :: t =>
    maxcl k t (if ukey_eqb k' k then match acc with Some a => Some (Z.max a c) | None => Some c end else acc)
  end.

Lemma maxcl_app k l1 l2 acc : maxcl k (l1 ++ l2) acc = maxcl k l2 (maxcl k l1 acc).
Proof. revert acc. induction l1 as [|[k' c] t IH]; intros acc; cbn; [reflexivity|apply IH]. Qed.

(* cl of the last notification about k *)
Fixpoint lastn (k : ukey) (ns : list (nkind * ukey * Z)) (acc : option Z) : option Z :=
  match ns with
  | [] => acc
  | (_, k', c) :: t => lastn k t (if ukey_eqb k' k then Some c else acc)
  end.

Lemma lastn_app k l1 l2 acc : lastn k (l1 ++ l2) acc = lastn k l2 (lastn k l1 acc).
Proof. revert acc. induction l1 as [|[[nk k'] c] t IH]; intros acc; cbn; [reflexivity|apply IH]. Qed.

(* the notifications about k never go down in cl, the first of them not below lo *)
Fixpoint mono_upto (k : ukey) (ns : list (nkind * ukey * Z)) (lo : option Z) : Prop :=
  match ns with
  | [] => True
  | (_, k', c) :: t =>
    if ukey_eqb k' k then (match lo with Some l => l <= c | None => True end) /\ mono_upto k t (Some c)
    else mono_upto k t lo
  end.

Lemma mono_upto_app k l1 l2 lo :
  mono_upto k (l1 ++ l2) lo <-> mono_upto k l1 lo /\ mono_upto k l2 (lastn k l1 lo).
Proof.
  revert lo. induction l1 as [|[[nk k'] c] t IH]; intros lo; cbn; [tauto|].
  destruct (ukey_eqb k' k); [rewrite IH; symmetry; apply and_assoc|apply IH].
Qed.

Definition ole (a : option Z) (b : option Z) : Prop :=
  match a, b with Some x, Some y => x <= y | Some _, None => False | None, _ => True end.

Lemma ole_refl a : ole a a.
Proof. destruct a; cbn; [lia|exact I]. Qed.

Definition omax (o : option Z) (c : Z) : option Z :=
  match o with Some a => Some (Z.max a c) | None => Some c end.

Lemma ole_omax a m c : ole a m -> ole a (omax m c).
Proof. destruct a as [x|], m as [y|]; cbn; intros H; try lia; contradiction. Qed.

Lemma maxcl_snoc k seen k' c :
  maxcl k (seen ++ [(k', c)]) None = if ukey_eqb k' k then omax (maxcl k seen None) c else maxcl k seen None.
Proof. rewrite maxcl_app. cbn. destruct (ukey_eqb k' k); reflexivity. Qed.

Record uinv (st : ustate) (seen : list (ukey * Z)) (ns : list (nkind * ukey * Z)) : Prop := {
  ui_cache : forall k, iget k (u_cache st) = maxcl k seen None;
  ui_cnodup : NoDup (ikeys (u_cache st));
  ui_bnodup : NoDup (ikeys (u_buf st));
  (* the last notification about k, once the buffer is flushed, carries the cached causal length *)
  ui_last : forall k, match iget k (u_buf st) with Some c => Some c | None => lastn k ns None end
                      = iget k (u_cache st);
  (* and no notification so far is above the cached causal length: what keeps a flush monotone *)
  ui_mono : forall k, mono_upto k ns None /\ ole (lastn k ns None) (iget k (u_cache st)) }.

Lemma uinv_init : uinv u_init [] [].
Proof. constructor; cbn; try constructor; auto. Qed.

(* a candidate is skipped exactly when it does not raise the cached causal length *)
Lemma recv1_cases st k c :
  (recv1 st (k, c) = st /\ omax (iget k (u_cache st)) c = iget k (u_cache st)) \/
  (recv1 st (k, c) = mkU (iset k c (u_cache st)) (iset k c (u_buf st)) /\
   omax (iget k (u_cache st)) c = Some c).
Proof.
  unfold recv1. destruct (iget k (u_cache st)) as [M|]; [|right; split; reflexivity].
  destruct (Z.ltb_spec c M); [left|right]; split; try reflexivity; cbn; f_equal; lia.
Qed.

Lemma recv1_inv st seen ns k c : uinv st seen ns -> uinv (recv1 st (k, c)) (seen ++ [(k, c)]) ns.
Proof.
  intros [Hc Hcn Hbn Hl Hm].
  assert (Hmax : forall k0, maxcl k0 (seen ++ [(k, c)]) None =
                 if ukey_eqb k k0 then omax (iget k (u_cache st)) c else iget k0 (u_cache st)).
  { intros k0. rewrite maxcl_snoc, <- Hc. destruct (ukey_eqbP k k0) as [->|]; reflexivity. }
  destruct (recv1_cases st k c) as [[-> E]|[-> E]]; rewrite E in Hmax.
  - (* skipped: the greatest causal lengths are what they were *)
    constructor; try assumption. (* ui_cache *) intros k0. rewrite Hmax. destruct (ukey_eqbP k k0) as [->|]; reflexivity.
  - (* accepted: c is the greatest for k, cached and pending *)
    constructor; cbn [u_cache u_buf]; try (apply ikeys_iset_nodup; assumption);
      intros k0; rewrite ?iget_iset, ?Hmax.
    + (* ui_cache *) reflexivity.
    + (* ui_last *) destruct (ukey_eqb k k0); [reflexivity|apply Hl].
    + (* ui_mono *) destruct (Hm k0) as [H1 H2]. split; [exact H1|].
      destruct (ukey_eqbP k k0) as [->|]; [|exact H2]. rewrite <- E. apply ole_omax, H2.
Qed.

Lemma recv_fold_inv cs : forall st seen ns, uinv st seen ns -> uinv (fold_left recv1 cs st) (seen ++ cs) ns.
Proof.
  intros st seen ns. revert seen st. apply (fold_left_hist (fun seen st => uinv st seen ns)).
  intros seen st [k c] _. apply recv1_inv.
Qed.

Lemma maxcl_other k cs : ~ In k (ikeys cs) -> forall acc, maxcl k cs acc = acc.
Proof.
  induction cs as [|[k' c] t IH]; cbn; intros Hn acc; [reflexivity|].
  destruct (ukey_eqbP k' k); [tauto|]. apply IH. tauto.
Qed.

Lemma cache_keys_seen st seen ns : uinv st seen ns -> forall k, In k (ikeys (u_cache st)) -> In k (ikeys seen).
Proof.
  intros H k Hk. destruct (in_dec (list_eq_dec Z.eq_dec) k (ikeys seen)) as [Hin|Hn]; [exact Hin|].
  exfalso. apply (proj1 (iget_none k (u_cache st))); [|exact Hk].
  rewrite (ui_cache _ _ _ H). apply maxcl_other, Hn.
Qed.

Lemma trim_id maxn keep m : Z.of_nat (length m) <= maxn -> trim maxn keep m = m.
Proof. intros H. unfold trim. destruct (Z.ltb_spec maxn (Z.of_nat (length m))); [lia|reflexivity]. Qed.

(* every candidate key comes from a universe of at most MAX keys: the cache is never trimmed *)
Definition bounded (maxn : Z) (U : list ukey) (cs : list (ukey * Z)) : Prop :=
  Z.of_nat (length U) <= maxn /\ forall k, In k (map fst cs) -> In k U.

Lemma bounded_app_l maxn U cs cs' : bounded maxn U (cs ++ cs') -> bounded maxn U cs.
Proof.
  intros [Hl HU]. split; [exact Hl|]. intros k Hk. apply HU. rewrite map_app, in_app_iff. left. exact Hk.
Qed.

Lemma recv_inv maxn keep U st seen ns cs : uinv st seen ns -> bounded maxn U (seen ++ cs) ->
  uinv (recv_with maxn keep st cs) (seen ++ cs) ns.
Proof.
  intros H [Hlen HU]. pose proof (recv_fold_inv cs st seen ns H) as H1. unfold recv_with.
  assert (Hl : Z.of_nat (length (u_cache (fold_left recv1 cs st))) <= maxn).
  { assert (Hincl : incl (ikeys (u_cache (fold_left recv1 cs st))) U).
    { intros k Hk. apply HU. exact (cache_keys_seen _ _ _ H1 k Hk). }
    pose proof (NoDup_incl_length (ui_cnodup _ _ _ H1) Hincl) as Hle.
    unfold ikeys in Hle. rewrite map_length in Hle. lia. }
  rewrite trim_id by exact Hl.
  destruct H1. constructor; assumption.
Qed.

(* the function ustep_with maps over the buffer at UFlush, under a name: flush_inv, urun_inv and
   eviction_goes_back meet the model's lambda and rely on it being this by conversion *)
Definition note (e : ukey * Z) : nkind * ukey * Z := (kind_of (snd e), fst e, snd e).

(* a flushed buffer notifies each of its keys once: that is then the last notification about
   the key, and the notifications stay monotone if it is not below the one before *)
Lemma batch_key k buf : NoDup (ikeys buf) -> forall lo,
  let last := match iget k buf with Some c => Some c | None => lo end in
  lastn k (map note buf) lo = last /\ (ole lo last -> mono_upto k (map note buf) lo).
Proof.
  induction buf as [|[k' c] t IH]; intros Hn lo; cbn; [split; [reflexivity|intros _; exact I]|].
  apply NoDup_cons_iff in Hn as [Hnot Hn'].
  destruct (ukey_eqbP k' k) as [->|]; [|apply IH; exact Hn'].
  destruct (IH Hn' (Some c)) as [E M]. rewrite (proj2 (iget_none k t) Hnot) in E, M.
  split; [exact E|]. intros Hc. split; [destruct lo; [exact Hc|exact I]|apply M, ole_refl].
Qed.

Lemma flush_inv st seen ns : uinv st seen ns ->
  uinv (mkU (u_cache st) []) seen (ns ++ map note (u_buf st)).
Proof.
  intros [Hc Hcn Hbn Hl Hm].
  assert (Hlast : forall k, lastn k (ns ++ map note (u_buf st)) None = iget k (u_cache st)).
  { intros k. rewrite lastn_app, (proj1 (batch_key k _ Hbn _)). apply Hl. }
  constructor; cbn [u_cache u_buf iget]; try assumption; [constructor|].
  intros k. destruct (Hm k) as [H1 H2]. rewrite Hlast. split; [|apply ole_refl].
  (* what is flushed for k is the cached causal length, so not below the last notification *)
  apply mono_upto_app. split; [exact H1|]. apply (batch_key k _ Hbn). rewrite Hl. exact H2.
Qed.

Fixpoint received (ops : list uop) : list (ukey * Z) :=
  match ops with
  | [] => []
  | URecv cs :: t => cs ++ received t
  | UFlush :: t => received t
  end.

Lemma urun_cons maxn keep st o t :
  urun_with maxn keep st (o :: t) =
  (fst (urun_with maxn keep (fst (ustep_with maxn keep st o)) t),
   snd (ustep_with maxn keep st o) ++ snd (urun_with maxn keep (fst (ustep_with maxn keep st o)) t)).
Proof.
  cbn [urun_with]. destruct (ustep_with maxn keep st o) as [st1 n1]. cbn [fst snd].
  destruct (urun_with maxn keep st1 t). reflexivity.
Qed.

Lemma urun_inv maxn keep U : forall ops st seen ns,
  uinv st seen ns -> bounded maxn U (seen ++ received ops) ->
  uinv (fst (urun_with maxn keep st ops)) (seen ++ received ops) (ns ++ snd (urun_with maxn keep st ops)).
Proof.
  induction ops as [|o ops IH]; intros st seen ns H Hb.
  - rewrite !app_nil_r. exact H.
  - rewrite urun_cons. destruct o as [cs|]; cbn [ustep_with fst snd received app] in *.
    + rewrite app_assoc in *. apply IH; [|exact Hb]. apply (recv_inv _ _ U); [exact H|].
      exact (bounded_app_l _ _ _ _ Hb).
    + rewrite app_assoc. apply IH; [|exact Hb]. apply flush_inv, H.
Qed.

Lemma received_flush ops : received (ops ++ [UFlush]) = received ops.
Proof. induction ops as [|[cs|] t IH]; cbn; [reflexivity|rewrite IH; reflexivity|exact IH]. Qed.

Lemma flush_last_empty maxn keep ops : forall st, u_buf (fst (urun_with maxn keep st (ops ++ [UFlush]))) = [].
Proof. induction ops as [|o t IH]; intros st; [reflexivity|]. cbn [app]. rewrite urun_cons. apply IH. Qed.

Theorem final_fate_eq maxn keep U ops :
  bounded maxn U (received ops) ->
  let ns := snd (urun_with maxn keep u_init (ops ++ [UFlush])) in
  forall k, lastn k ns None = maxcl k (received ops) None /\ mono_upto k ns None.
Proof.
  intros Hb ns k.
  assert (Hb' : bounded maxn U ([] ++ received (ops ++ [UFlush]))) by (cbn; rewrite received_flush; exact Hb).
  pose proof (urun_inv maxn keep U (ops ++ [UFlush]) u_init [] [] uinv_init Hb') as H.
  rewrite received_flush in H.
  split; [|apply (ui_mono _ _ _ H)].
  (* the run ends with a flush: nothing is pending *)
  pose proof (ui_last _ _ _ H k) as Hl. rewrite flush_last_empty, (ui_cache _ _ _ H) in Hl. exact Hl.
Qed.

Theorem updates_final_fate maxn keep U ops :
  bounded maxn U (received ops) ->
  let ns := snd (urun_with maxn keep u_init (ops ++ [UFlush])) in
  (forall k M, maxcl k (received ops) None = Some M -> lastn k ns None = Some M) /\
  (forall k, mono_upto k ns None) /\
  (forall k c, lastn k ns None = Some c -> maxcl k (received ops) None = Some c).
Proof.
  intros Hb ns. pose proof (final_fate_eq maxn keep U ops Hb) as H. fold ns in H.
  split; [|split]; intros k; destruct (H k) as [E Hm]; [rewrite E|exact Hm|rewrite E]; auto.
Qed.

Lemma iset_fresh k v m : ~ In k (ikeys m) -> iset k v m = m ++ [(k, v)].
Proof.
  induction m as [|[k' v'] t IH]; cbn; intros Hn; [reflexivity|].
  destruct (ukey_eqbP k' k); [tauto|]. rewrite IH by tauto. reflexivity.
Qed.

Lemma recv_fresh cs : forall st, NoDup (ikeys (u_cache st ++ cs)) -> NoDup (ikeys (u_buf st ++ cs)) ->
  fold_left recv1 cs st = mkU (u_cache st ++ cs) (u_buf st ++ cs).
Proof.
  induction cs as [|[k c] t IH]; intros [cache buf] Hc Hb; cbn [fold_left u_cache u_buf] in *.
  - rewrite !app_nil_r. reflexivity.
  - assert (Hk : forall m, NoDup (ikeys (m ++ (k, c) :: t)) -> ~ In k (ikeys m)).
    { intros m H Hin. unfold ikeys in H. rewrite map_app in H. apply NoDup_remove_2 in H.
      apply H, in_or_app. left. exact Hin. }
    unfold recv1 at 2. cbn [u_cache u_buf]. rewrite (proj2 (iget_none k cache)), !iset_fresh by auto.
    rewrite IH; cbn [u_cache u_buf]; rewrite <- !app_assoc; [reflexivity|exact Hc|exact Hb].
Qed.

(* the scenario of C14_evict_refuted, for any key and batch: the trim keeps the newest KEEP of the
   fresh keys and forgets k (Hc), so the later candidate for k is accepted whatever its causal
   length (Hns) *)
Theorem eviction_goes_back maxn keep k c1 c2 fresh :
  NoDup (ikeys fresh) -> ~ In k (ikeys fresh) ->
  1 <= maxn <= Z.of_nat (length fresh) -> keep <= Z.of_nat (length fresh) -> c2 < c1 ->
  let ops := [URecv [(k, c1)]; UFlush; URecv fresh; UFlush; URecv [(k, c2)]; UFlush] in
  let ns := snd (urun_with maxn keep u_init ops) in
  lastn k ns None = Some c2 /\ maxcl k (received ops) None = Some c1 /\ ~ mono_upto k ns None.
Proof.
  intros Hnd Hk Hmax Hkeep Hlt ops ns.
  assert (Hc : iget k (trim maxn keep ((k, c1) :: fresh)) = None).
  { unfold trim. cbn [length]. rewrite (proj2 (Z.ltb_lt _ _)) by lia.
    rewrite Nat.sub_succ_l, skipn_cons by lia.
    apply iget_none. intros H. apply Hk. unfold ikeys in *.
    rewrite <- (firstn_skipn (length fresh - Z.to_nat keep) fresh), map_app, in_app_iff. right. exact H. }
  assert (Hns : ns = [note (k, c1)] ++ map note fresh ++ [note (k, c2)]).
  { unfold ns, ops. cbn [urun_with ustep_with recv_with fold_left recv1 u_init u_cache u_buf iget iset].
    rewrite (trim_id maxn keep [(k, c1)]) by (cbn; lia).
    rewrite recv_fresh; cbn [u_cache u_buf app]; [|constructor; assumption|exact Hnd].
    rewrite Hc. reflexivity. }
  rewrite Hns. unfold ops.
  assert (Hl : lastn k ([note (k, c1)] ++ map note fresh) None = Some c1).
  { rewrite lastn_app, (proj1 (batch_key k _ Hnd _)), (proj2 (iget_none k fresh) Hk).
    cbn. rewrite ukey_eqb_refl. reflexivity. }
  split; [|split].
  - rewrite app_assoc, lastn_app. cbn. rewrite ukey_eqb_refl. reflexivity.
  - cbn [received app]. cbn [maxcl]. rewrite ukey_eqb_refl, maxcl_app, (maxcl_other k fresh Hk).
    cbn. rewrite ukey_eqb_refl. f_equal. lia.
  - rewrite app_assoc, mono_upto_app, Hl. cbn. rewrite ukey_eqb_refl. lia.
Qed.

(* fresh keys for eviction_goes_back; n is a variable, so that no step handles the unary numeral
   the property file puts in *)
Lemma numbered_keys_fresh n c : let ks := map (fun i => ([Z.of_nat i], c)) (seq 1 n) in
  NoDup (ikeys ks) /\ ~ In [0] (ikeys ks) /\ length ks = n.
Proof.
  intros ks. unfold ks, ikeys. rewrite map_map, map_length, seq_length. cbn [fst].
  split; [|split; [|reflexivity]].
  - apply FinFun.Injective_map_NoDup; [|apply seq_NoDup]. intros x y H. injection H. apply Nat2Z.inj.
  - rewrite in_map_iff. intros (i & Hi & Hin). apply in_seq in Hin. injection Hi. lia.
Qed.
