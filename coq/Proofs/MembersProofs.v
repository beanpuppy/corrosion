(* C18.  by_addr stays the inverse of the members' current addresses (ba_inv), which is what
   confines a round-trip sample to the member at that address (add_rtt_current). *)
From Coq Require Import List ZArith Bool Lia.
From Corro Require Import Lib.ListFacts Gen.Consts Model.Members.
Import ListNotations.
Open Scope Z_scope.

Section MapLemmas.
  Context {V : Type}.
  Implicit Types m : list (Z * V).

  Lemma mget_mset m k k' v : mget k' (mset k v m) = if k' =? k then Some v else mget k' m.
  Proof.
    induction m as [|[k0 v0] m IH]; cbn; [reflexivity|].
    destruct (Z.eqb_spec k k0) as [->|Hne]; [cbn; destruct (k' =? k0); reflexivity|].
    destruct (k <? k0); cbn; [reflexivity|].
    rewrite IH. destruct (Z.eqb_spec k' k0) as [->|]; [|reflexivity].
    destruct (Z.eqb_spec k0 k); [congruence|reflexivity].
  Qed.

  Lemma mget_mdel m k k' : mget k' (mdel k m) = if k' =? k then None else mget k' m.
  Proof.
    induction m as [|[k0 v0] m IH]; cbn; [destruct (k' =? k); reflexivity|].
    destruct (Z.eqb_spec k k0) as [->|Hne]; cbn; rewrite IH; [destruct (k' =? k0); reflexivity|].
    destruct (Z.eqb_spec k' k0) as [->|]; [|reflexivity].
    destruct (Z.eqb_spec k0 k); [congruence|reflexivity].
  Qed.
End MapLemmas.

Definition core (st : mstate) : Z * Z * Z := (m_addr st, m_ts st, m_cluster st).

(* recalculate_rings changes at most the ring of the member whose address is sampled *)
Lemma recalc_spec m addr :
  recalculate_rings m addr = m \/
  exists aid st r, mget addr (by_addr m) = Some aid /\ mget aid (states m) = Some st /\
    recalculate_rings m addr =
    mkMembers (mset aid (mkMstate (m_addr st) (m_ts st) (m_cluster st) (Some r)) (states m)) (by_addr m) (rtts m).
Proof.
  unfold recalculate_rings.
  destruct (mget addr (by_addr m)) as [aid|]; [|left; reflexivity].
  destruct (mget addr (rtts m)) as [[|x buf]|]; try (left; reflexivity).
  destruct (mget aid (states m)) as [st|] eqn:Est; [|left; reflexivity].
  destruct (bucket_of _ ring_buckets 0) as [r|]; [|left; reflexivity].
  right. exists aid, st, r. auto.
Qed.

Lemma recalc_core m addr a :
  option_map core (mget a (states (recalculate_rings m addr))) = option_map core (mget a (states m)).
Proof.
  destruct (recalc_spec m addr) as [->|(aid & st & r & _ & Est & ->)]; [reflexivity|]. cbn [states].
  rewrite mget_mset. destruct (Z.eqb_spec a aid) as [->|]; [rewrite Est|]; reflexivity.
Qed.

Lemma recalc_by_addr m addr : by_addr (recalculate_rings m addr) = by_addr m.
Proof. destruct (recalc_spec m addr) as [->|(aid & st & r & _ & _ & ->)]; reflexivity. Qed.

(* what a newest-identity record asks of the member's state: view_matches is this equation *)
Definition view_of (so : option srec) : option (Z * Z * Z) :=
  match so with
  | Some r => if s_up r then Some (s_addr r, s_ts r, s_cluster r) else None
  | None => None
  end.

Definition follows (m : members) (s : list (Z * srec)) : Prop :=
  forall a, option_map core (mget a (states m)) = view_of (mget a s).

Lemma follows_view m s a : follows m s -> view_matches m s a = true.
Proof.
  intros H. specialize (H a). revert H. unfold view_matches, view_of, core.
  destruct (mget a s) as [r|]; [destruct (s_up r)|]; destruct (mget a (states m)) as [st|];
    try discriminate; try reflexivity.
  intros [= E1 E2 E3]. rewrite E1, E2, E3, !Z.eqb_refl. reflexivity.
Qed.

Lemma follows_recalc m s addr : follows m s -> follows (recalculate_rings m addr) s.
Proof. intros H x. rewrite recalc_core. apply H. Qed.

(* two ways to keep the view when the record of actor a is set: the member is set to what the
   record asks for, or stays as it is *)
Lemma follows_mset m s a st r ba rt :
  follows m s -> Some (core st) = view_of (Some r) -> follows (mkMembers (mset a st (states m)) ba rt) (mset a r s).
Proof. intros H E x. cbn [states]. rewrite !mget_mset. destruct (x =? a); [exact E|apply H]. Qed.

Lemma follows_rec m s a r :
  follows m s -> option_map core (mget a (states m)) = view_of (Some r) -> follows m (mset a r s).
Proof. intros H E x. rewrite mget_mset. destruct (Z.eqb_spec x a) as [->|]; [exact E|apply H]. Qed.

Lemma step_view m s op : follows m s -> op_allowed s op = true -> follows (mstep m op) (spec_step s op).
Proof.
  intros Hi Hal. destruct op as [a|a|addr ms]; cbn [mstep spec_step op_allowed] in *;
    [| |apply follows_recalc, Hi].
  - (* Hx leaves three cases: reported up and present, reported down and absent, unknown and absent *)
    pose proof (Hi (a_id a)) as Hx.
    destruct (mget (a_id a) s) as [r|]; cbn [view_of] in Hx; [destruct (s_up r)|];
      destruct (mget (a_id a) (states m)) as [st|] eqn:Est; try discriminate Hx.
    (* unfolded only now: the case split does not have to go through the body *)
    all: unfold add_member; rewrite Est; cbn [fst].
    + (* present: an older identity is ignored, a newer one replaces, the same one changes nothing *)
      pose proof Hx as [= _ Hts _]. rewrite Hts.
      destruct (Z.ltb_spec (a_ts a) (s_ts r)); [|destruct (Z.ltb_spec (s_ts r) (a_ts a))]; cbn [fst].
      * (* spec_step's two tests of s_ts r against a_ts a *)
        rewrite (proj2 (Z.ltb_ge (s_ts r) (a_ts a))), (proj2 (Z.eqb_neq (s_ts r) (a_ts a))) by lia. exact Hi.
      * destruct (negb _); cbn [fst]; [apply follows_recalc|]; (apply follows_mset; [exact Hi|reflexivity]).
      * rewrite (proj2 (Z.eqb_eq (s_ts r) (a_ts a))) by lia. apply follows_rec; [exact Hi|rewrite Est; exact Hx].
    + (* reported down: the SWIM constraint excludes an older identity *)
      apply andb_true_iff in Hal as [Hle Hsame]. apply Z.leb_le in Hle. apply follows_recalc.
      destruct (Z.ltb_spec (s_ts r) (a_ts a)); [apply follows_mset; [exact Hi|reflexivity]|].
      destruct (Z.eqb_spec (s_ts r) (a_ts a)) as [Hts|]; [|lia].
      apply andb_true_iff in Hsame as [Had Hcl]. apply Z.eqb_eq in Had, Hcl.
      apply follows_mset; [exact Hi|]. rewrite Hts, Had, Hcl. reflexivity.
    + (* unknown so far: inserted *)
      apply follows_recalc, follows_mset; [exact Hi|reflexivity].
  - pose proof (Hi (a_id a)) as Hx.
    destruct (mget (a_id a) s) as [r|]; cbn [view_of] in Hx; [destruct (s_up r)|];
      destruct (mget (a_id a) (states m)) as [st|] eqn:Est; try discriminate Hx.
    all: unfold remove_member; rewrite Est; cbn [fst].
    + (* present, hence the same identity on both sides: removed iff not newer than the notification *)
      pose proof Hx as [= _ -> _].
      destruct (s_ts r <=? a_ts a); cbn [fst]; [|exact Hi]. intros x. cbn [states].
      rewrite mget_mset, mget_mdel. destruct (x =? a_id a); [reflexivity|apply Hi].
    + (* reported down already, and absent: at most the record changes *)
      destruct (s_ts r <=? a_ts a); [|exact Hi]. apply follows_rec; [exact Hi|rewrite Est; reflexivity].
    + (* unknown so far: recorded as down, nothing to remove *)
      apply follows_rec; [exact Hi|rewrite Est; reflexivity].
Qed.

Theorem members_view : forall ops m s,
  follows m s -> ops_allowed s ops = true -> follows (fold_left mstep ops m) (fold_left spec_step ops s).
Proof.
  induction ops as [|op ops IH]; intros m s Hinv Hal; [exact Hinv|].
  apply andb_true_iff in Hal as [H1 H2].
  apply IH; [|exact H2]. apply step_view; assumption.
Qed.

Definition ba_inv (m : members) : Prop :=
  forall addr a, mget addr (by_addr m) = Some a ->
    exists st, mget a (states m) = Some st /\ m_addr st = addr.

Lemma recalc_ba_inv m addr : ba_inv m -> ba_inv (recalculate_rings m addr).
Proof.
  intros H ad a Hg. rewrite recalc_by_addr in Hg. destruct (H ad a Hg) as (st & Hs & Ha).
  pose proof (recalc_core m addr a) as Hc. rewrite Hs in Hc.
  destruct (mget a (states (recalculate_rings m addr))) as [st'|]; [|discriminate].
  exists st'. split; [reflexivity|]. injection Hc as -> _ _. exact Ha.
Qed.

Definition ba_without (id : Z) (m : members) (ba : list (Z * Z)) : Prop :=
  forall addr a, mget addr ba = Some a -> a <> id /\ mget addr (by_addr m) = Some a.

(* the entry of a member's old address is dropped: nothing points to it any more *)
Lemma drop_old_ba m st id :
  ba_inv m -> mget id (states m) = Some st ->
  ba_without id m (match mget (m_addr st) (by_addr m) with
                   | Some x => if x =? id then mdel (m_addr st) (by_addr m) else by_addr m
                   | None => by_addr m end).
Proof.
  intros Hba Hst addr a Hg.
  assert (Hpt : mget addr (by_addr m) = Some id -> addr = m_addr st).
  { intros H1. destruct (Hba _ _ H1) as (st' & Hs' & Ha'). congruence. }
  destruct (mget (m_addr st) (by_addr m)) as [x|] eqn:Ex; [destruct (Z.eqb_spec x id) as [->|Hx]|].
  - revert Hg. rewrite mget_mdel. destruct (Z.eqb_spec addr (m_addr st)) as [->|Hne]; [discriminate|].
    intros Hg. split; [|exact Hg]. intros ->. auto.
  - split; [|exact Hg]. intros ->. rewrite (Hpt Hg) in Hg. congruence.
  - split; [|exact Hg]. intros ->. rewrite (Hpt Hg) in Hg. congruence.
Qed.

Lemma set_ba_inv m ba id st :
  ba_inv m -> ba_without id m ba ->
  ba_inv (mkMembers (mset id st (states m)) (mset (m_addr st) id ba) (rtts m)).
Proof.
  intros Hba Hwo addr a. cbn [by_addr states]. rewrite !mget_mset.
  destruct (Z.eqb_spec addr (m_addr st)) as [->|Hne]; intros Hg.
  - injection Hg as <-. rewrite Z.eqb_refl. eauto.
  - destruct (Hwo _ _ Hg) as [Hna Hg']. destruct (Z.eqb_spec a id); [contradiction|]. apply Hba, Hg'.
Qed.

Lemma step_ba_inv m op : ba_inv m -> ba_inv (mstep m op).
Proof.
  intros Hba. destruct op as [act|act|addr ms]; cbn [mstep].
  - unfold add_member. destruct (mget (a_id act) (states m)) as [st|] eqn:Est; cbn [fst].
    + destruct (a_ts act <? m_ts st); [exact Hba|]. destruct (m_ts st <? a_ts act); [|exact Hba].
      destruct (negb (m_addr st =? a_addr act)) eqn:Emv; cbn [fst].
      * (* the constructor is given so that m_addr of the new state computes when set_ba_inv is unified *)
        apply recalc_ba_inv, (set_ba_inv m _ _ (mkMstate _ _ _ _)), (drop_old_ba m st); assumption.
      * (* same address: the index stays *)
        apply negb_false_iff, Z.eqb_eq in Emv. intros addr a Hg. cbn [by_addr states] in *. rewrite mget_mset.
        destruct (Hba _ _ Hg) as (st' & Hs' & Ha'). destruct (Z.eqb_spec a (a_id act)) as [->|Hne]; [|eauto].
        eexists. split; [reflexivity|]. cbn. congruence.
    + apply recalc_ba_inv, (set_ba_inv m _ _ (mkMstate _ _ _ _)); [exact Hba|].
      intros addr a Hg. split; [|exact Hg]. destruct (Hba _ _ Hg) as (st' & Hs' & _). congruence.
  - unfold remove_member. destruct (mget (a_id act) (states m)) as [st|] eqn:Est; [|exact Hba].
    destruct (m_ts st <=? a_ts act); [|exact Hba]. cbn [fst]. intros addr a Hg. cbn [by_addr states] in *.
    destruct (drop_old_ba m st (a_id act) Hba Est addr a Hg) as [Hna Hg'].
    rewrite mget_mdel. destruct (Z.eqb_spec a (a_id act)); [contradiction|]. apply Hba, Hg'.
  - unfold add_rtt. apply recalc_ba_inv. exact Hba.
Qed.

Lemma mrun_ba_inv ops : ba_inv (mrun ops).
Proof.
  apply (fold_left_inv ba_inv mstep); [|intros addr a H; discriminate]. intros m op _. apply step_ba_inv.
Qed.

Lemma add_rtt_current m addr ms a st st' :
  ba_inv m -> mget a (states m) = Some st -> mget a (states (add_rtt m addr ms)) = Some st' ->
  core st' = core st /\ (st' <> st -> m_addr st = addr).
Proof.
  intros Hba Hs Hs'. unfold add_rtt in Hs'. set (m1 := mkMembers (states m) (by_addr m) _) in Hs'. split.
  - pose proof (recalc_core m1 addr a) as Hc. rewrite Hs' in Hc. cbn [states m1] in Hc. rewrite Hs in Hc.
    cbn in Hc. congruence.
  - intros Hne. destruct (recalc_spec m1 addr) as [E|(aid & sa & r & Eb & Ea & E)];
      rewrite E in Hs'; cbn [states by_addr m1] in *; [congruence|].
    revert Hs'. rewrite mget_mset. destruct (Z.eqb_spec a aid) as [->|]; [|congruence].
    destruct (Hba _ _ Eb) as (s0 & Hs0 & Ha0). congruence.
Qed.

Theorem ring0_sound m c addr : In addr (ring0 m c) ->
  exists a st, In (a, st) (states m) /\ m_addr st = addr /\ m_cluster st = c /\ m_ring st = Some 0.
Proof.
  unfold ring0. intros H. apply in_flat_map in H. destruct H as ([a st] & Hin & H). cbn [snd] in H.
  destruct (m_ring st) as [r|] eqn:Er; [|destruct H].
  destruct ((m_cluster st =? c) && (r =? 0)) eqn:E; [|destruct H]. destruct H as [<-|[]].
  apply andb_true_iff in E as [E1 E2]. apply Z.eqb_eq in E1, E2. subst.
  exists a, st. repeat split; auto.
Qed.

Theorem ring0_complete m c a st : In (a, st) (states m) -> m_cluster st = c -> m_ring st = Some 0 ->
  In (m_addr st) (ring0 m c).
Proof.
  intros Hin Hc Hr. unfold ring0. apply in_flat_map. exists (a, st). split; [exact Hin|]. cbn [snd].
  rewrite Hr, Hc, !Z.eqb_refl. left; reflexivity.
Qed.
