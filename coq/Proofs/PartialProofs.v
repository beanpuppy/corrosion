From Coq Require Import List ZArith Bool Lia.
From Corro Require Import Lib.Ivl Lib.ListFacts Model.Book Model.Partial Proofs.SeqRowsProofs.
Import ListNotations.
Open Scope Z_scope.

Section Atomic.
  Context (last : Z) (tx : list row).
  Context (Hlast : 0 <= last).
  Context (Htx : forall r, In r tx -> 0 <= fst r <= last).
  Context (Hnd : NoDup (map fst tx)).

  Definition chunk (s e : Z) : list row := filter (fun r => (s <=? fst r) && (fst r <=? e)) tx.

  Definition wf_op (op : pop) : Prop :=
    match op with
    | Deliver s e l c => l = last /\ 0 <= s /\ e <= last /\ c = chunk s e
    | _ => True
    end.

  Definition cov (ops : list pop) (x : Z) : Prop :=
    exists s e l c, In (Deliver s e l c) ops /\ s <= x <= e.
  Definition all_cov (ops : list pop) : Prop := forall x, 0 <= x <= last -> cov ops x.
  Definition same_as_tx (l : list row) : Prop := forall r, In r l <-> In r tx.
  Definition buf_is (S : iset) (b : list row) : Prop := forall r, In r b <-> In r tx /\ mem (fst r) S.
  Definition full (S : iset) : Prop := forall x, 0 <= x <= last -> mem x S.

  Lemma chunk_in s e r : In r (chunk s e) <-> In r tx /\ s <= fst r <= e.
  Proof.
    unfold chunk. etransitivity; [apply filter_In|]. apply and_iff_compat_l, andb_iff; apply Z.leb_le.
  Qed.

  Lemma chunk_full : chunk 0 last = tx.
  Proof.
    apply filter_all. intros r Hr. rewrite andb_true_iff, !Z.leb_le. apply Htx, Hr.
  Qed.

  (* ON CONFLICT (seq) DO NOTHING: among the rows of tx the seq determines the row *)
  Lemma buf_insert_in r b x : In r tx -> (forall y, In y b -> In y tx) ->
    (In x (buf_insert r b) <-> In x b \/ r = x).
  Proof.
    intros Hr. induction b as [|h t IH]; intros Hb; cbn [buf_insert In]; [apply or_comm|].
    destruct (fst r =? fst h) eqn:E; [|destruct (fst r <? fst h)]; cbn [In].
    - split; [left; assumption|]. intros [H|<-]; [exact H|]. left. apply Z.eqb_eq in E.
      apply (NoDup_map_inj fst tx h r Hnd); [apply Hb; left; reflexivity|exact Hr|symmetry; exact E].
    - apply or_comm.
    - rewrite IH by (intros y Hy; apply Hb; right; exact Hy). symmetry. apply or_assoc.
  Qed.

  Lemma buf_fold_in changes : forall b,
    (forall r, In r b -> In r tx) -> (forall r, In r changes -> In r tx) ->
    forall x, In x (fold_left (fun b r => buf_insert r b) changes b) <-> In x b \/ In x changes.
  Proof.
    induction changes as [|c cs IH]; intros b Hb Hc x; cbn [fold_left In]; [tauto|].
    pose proof (fun x => buf_insert_in c b x (Hc c (or_introl eq_refl)) Hb) as Hi.
    rewrite IH, Hi; [apply or_assoc| |intros r Hr; apply Hc; right; exact Hr].
    intros r Hr. apply Hi in Hr. destruct Hr as [Hr|<-]; [apply Hb, Hr|apply Hc; left; reflexivity].
  Qed.

  Lemma covered_iff p : canonical (p_seqs p) -> p_last p = last -> (covered p = true <-> full (p_seqs p)).
  Proof.
    intros Hc Hl. unfold covered, full. rewrite Hl, <- (gaps_nil _ 0 last Hc).
    destruct (gaps 0 last (p_seqs p)); [split; reflexivity|]. split; discriminate.
  Qed.

  Lemma cov_snoc ops op x :
    cov (ops ++ [op]) x <-> cov ops x \/ match op with Deliver s e _ _ => s <= x <= e | _ => False end.
  Proof.
    unfold cov. split.
    - intros (s & e & l & c & [Hin| <-]%in_snoc & Hx); [left; exists s, e, l, c; split; assumption|right; exact Hx].
    - intros [(s & e & l & c & Hin & Hx)|H].
      + exists s, e, l, c. split; [apply in_snoc; left; exact Hin|exact Hx].
      + destruct op as [|s e l c| |]; try contradiction.
        exists s, e, l, c. split; [apply in_snoc; right; reflexivity|exact H].
  Qed.

  Lemma all_cov_app ops op : all_cov ops -> all_cov (ops ++ [op]).
  Proof. intros H x Hx. apply cov_snoc. left. apply H, Hx. Qed.

  (* The life of the version has two phases.  While it is OPEN nothing of it is merged: the
     seq rows, the in-memory partial and the buffered changes all describe exactly the seqs
     the deliveries so far covered.  Once it is DONE (merged, or declared empty by a peer)
     every well-formed delivery is skipped, and what remains buffered is scheduled for removal. *)
  Definition held (st : pst) : iset := match ps_mem st with Some p => p_seqs p | None => [] end.
  Definition quiet (st : pst) : Prop := ps_clear st = true \/ (ps_rows st = [] /\ ps_buf st = []).

  Record Open (ops : list pop) (st : pst) : Prop := {
    o_db : ps_db st = [];
    o_clear : ps_clear st = false;
    o_rows : rows_ok (ps_rows st);
    o_rset : rset (ps_rows st) = held st;
    o_buf : buf_is (held st) (ps_buf st);
    o_cov : forall x, mem x (held st) <-> cov ops x;
    o_trig : 0 <= ps_trig st;
    o_mem : match ps_mem st with
            | None => ps_known st = false
            | Some p => ps_known st = true /\ p_last p = last /\ (covered p = true -> 1 <= ps_trig st)
            end }.

  Record Done (ops : list pop) (st : pst) : Prop := {
    d_known : ps_known st = true;
    d_mem : match ps_mem st with
            | None => True
            | Some p => p_last p = last /\ canonical (p_seqs p) /\ covered p = true
            end;
    d_buf : forall r, In r (ps_buf st) -> In r tx;
    d_quiet : quiet st;
    d_db : (same_as_tx (ps_db st) /\ all_cov ops) \/
           (ps_db st = [] /\ ps_mem st = None /\ In DeliverEmpty ops) }.

  Lemma open_canonical ops st : Open ops st -> canonical (held st).
  Proof. intros H. rewrite <- (o_rset _ _ H). exists 0. apply rows_ok_iff, (o_rows _ _ H). Qed.

  Lemma open_full_tx ops st : Open ops st -> full (held st) -> same_as_tx (ps_buf st).
  Proof.
    intros H Hf r. rewrite (o_buf _ _ H r). split; [intros [Hr _]; exact Hr|]. intros Hr. split; [exact Hr|apply Hf, Htx, Hr].
  Qed.

  (* the state is left alone and nothing new is covered *)
  Lemma open_app ops st : Open ops st -> forall op,
    (forall x, match op with Deliver s e _ _ => s <= x <= e | _ => False end -> cov ops x) -> Open (ops ++ [op]) st.
  Proof.
    intros [Hdb Hcl Hrok Hrs Hbuf Hcov Htrig Hmem] op Hq. constructor; try assumption.
    intros x. rewrite cov_snoc, (Hcov x). specialize (Hq x). split; [|intros [H|H]]; auto.
  Qed.

  Definition PInv (ops : list pop) (st : pst) : Prop := Open ops st \/ Done ops st.

  Lemma open_step ops st op : Open ops st -> wf_op op -> PInv (ops ++ [op]) (fst (pstep st op)).
  Proof.
    intros HO Hwf. pose proof (open_canonical _ _ HO) as Hcan. pose proof (open_full_tx _ _ HO) as Hftx.
    pose proof (open_app ops st HO) as Hstay. destruct HO as [Hdb Hcl Hrok Hrs Hbuf Hcov Htrig Hmem].
    destruct st as [rows buf m known db trig clear]. unfold held in *.
    cbn [ps_mem ps_known ps_rows ps_buf ps_db ps_clear ps_trig] in *. subst db clear.
    assert (Hbtx : forall r, In r buf -> In r tx) by (intros r Hr; apply Hbuf, Hr).
    (* the version is merged whole, or declared empty *)
    assert (Hfin : forall ops' db', (same_as_tx db' /\ all_cov ops') \/ (db' = [] /\ In DeliverEmpty ops') ->
                   Done ops' (mkPst rows buf None true db' trig
                                (false || negb (match rows, buf with [], [] => true | _, _ => false end)))).
    { intros ops' db' Hd. constructor; cbn [ps_mem ps_known ps_buf ps_db]; [reflexivity|exact I|exact Hbtx| |].
      - destruct rows; [destruct buf|]; [right; split; reflexivity|left; reflexivity|left; reflexivity].
      - destruct Hd as [Hd|[Hd1 Hd2]]; auto. }
    destruct op as [|s e l c| |]; [|destruct Hwf as (-> & Hs & He & Hc)| |];
      unfold pstep; cbn [ps_mem ps_known ps_rows ps_buf ps_db ps_clear ps_trig].
    - destruct (known && _); cbn [fst]; [left; apply Hstay; intros x []|right].
      apply Hfin. right. split; [reflexivity|apply in_snoc; right; reflexivity].
    - destruct (known && _) eqn:Ehave; cbn [fst].
      { (* everything in s..=e is already held: skipped *)
        left. apply Hstay. intros x Hx. apply Hcov.
        destruct m as [p|]; [|rewrite Hmem in Ehave; discriminate]. apply andb_true_iff in Ehave as [_ Eg].
        apply (gaps_nil (p_seqs p) s e Hcan); [|exact Hx].
        destruct (gaps s e (p_seqs p)); [reflexivity|discriminate]. }
      destruct ((s =? 0) && (e =? last)) eqn:Efull; [|destruct (e <? s) eqn:Einv]; cbn [fst].
      + apply andb_true_iff in Efull as [E1 E2]. apply Z.eqb_eq in E1, E2. subst s e. rewrite chunk_full in Hc.
        right. assert (Hd : same_as_tx c /\ all_cov (ops ++ [Deliver 0 last last c])).
        { split; [rewrite Hc; intros r; reflexivity|intros x Hx; apply cov_snoc; right; exact Hx]. }
        destruct c; apply Hfin; left; exact Hd.
      + apply Z.ltb_lt in Einv. left. apply Hstay. intros x Hx. lia.
      + apply Z.ltb_ge in Einv. left. subst c.
        destruct (incomplete_rows_ok rows s e last Hrok (conj Hs Einv)) as (rows' & a & b & -> & Hok & Hrs' & Ha & Hb & Hin).
        (* the in-memory partial and the seq rows make the same step: ins_all [(a, b)] held = ins s e held
           (ins_block), whether or not a partial existed *)
        cbn [fst]. rewrite Hrs in Hrs'. rewrite Hrs' in Hin.
        pose proof (ins_block _ _ _ _ _ Hcan Einv Ha Hb Hin) as Hblk.
        set (S := match m with Some p => p_seqs p | None => [] end) in *.
        replace (match m with None => _ | Some p => _ end) with (mkPartial (ins s e S) last)
          by (rewrite <- Hblk; unfold S; destruct m as [p|]; [destruct Hmem as (_ & -> & _)|]; reflexivity).
        assert (Hmem' : forall x, mem x (ins s e S) <-> s <= x <= e \/ cov ops x)
          by (intros x; rewrite <- Hcov; apply ins_mem, Einv).
        constructor; cbn [ps_mem ps_known ps_rows ps_buf ps_db ps_clear ps_trig p_seqs p_last]; try reflexivity; try assumption.
        * (* o_buf *)
          intros r. rewrite buf_fold_in, chunk_in, Hmem', (Hbuf r), Hcov; [|exact Hbtx|intros r0 Hr0; apply chunk_in in Hr0; apply Hr0].
          (* T /\ C \/ T /\ B <-> T /\ (B \/ C), for T := In r tx, B := s <= fst r <= e, C := cov ops (fst r) *)
          split; [intros [[H1 H2]|[H1 H2]]|intros [H1 [H2|H2]]]; auto.
        * (* o_cov *) intros x. rewrite cov_snoc, Hmem'. apply or_comm.
        * (* o_trig *) destruct (covered _); lia.
        * (* o_mem *) split; [reflexivity|]. split; [reflexivity|]. intros ->. lia.
    - destruct m as [p|]; [|left; apply Hstay; intros x []]. destruct Hmem as (_ & Hpl & Htrig1).
      destruct (covered p) eqn:Ec; cbn [fst]; [right|left; apply Hstay; intros x []].
      assert (Hall : full (p_seqs p)) by (apply covered_iff; assumption).
      (* d_known, d_mem, d_buf, d_quiet; of d_db the first alternative *)
      constructor; cbn [ps_mem ps_known ps_rows ps_buf ps_db ps_clear ps_trig app]; [reflexivity|auto|exact Hbtx|left; reflexivity|left].
      split; [apply Hftx, Hall|]. intros x Hx. apply cov_snoc. left. apply Hcov, Hall, Hx.
    - left. apply Hstay. intros x [].
  Qed.

  Lemma done_app ops op st : Done ops st -> Done (ops ++ [op]) st.
  Proof.
    intros [Hk Hm Hbuf Hq Hdb]. constructor; try assumption.
    destruct Hdb as [[H1 H2]|(H1 & H2 & H3)]; [left; split; [exact H1|apply all_cov_app, H2]|right].
    split; [exact H1|]. split; [exact H2|apply in_snoc; left; exact H3].
  Qed.

  Lemma done_step ops st op : Done ops st -> wf_op op -> Done ops (fst (pstep st op)).
  Proof.
    intros HD Hwf. pose proof HD as [Hk Hm Hbuf Hq Hdb]. destruct st as [rows buf m known db trig clear].
    cbn [ps_mem ps_known ps_rows ps_buf ps_db ps_clear ps_trig] in *. subst known.
    destruct op as [|s e l c| |]; unfold pstep; cbn [ps_mem ps_known ps_rows ps_buf ps_db ps_clear ps_trig andb].
    - destruct m as [p|]; [destruct Hm as (_ & _ & ->)|]; exact HD.
    - destruct Hwf as (_ & Hs & He & _).
      destruct m as [p|]; [|exact HD]. destruct Hm as (Hl & Hc & Hcv).
      rewrite (proj2 (gaps_nil _ s e Hc)); [exact HD|].
      intros x Hx. apply (covered_iff p Hc Hl); [exact Hcv|lia].
    - (* a second apply appends the buffer to ps_db once more: same_as_tx is equality of members, not of lists *)
      destruct m as [p|]; [|exact HD]. pose proof Hm as (_ & _ & ->). cbn [fst].
      destruct Hdb as [[H1 H2]|(_ & H & _)]; [|discriminate].
      (* d_known, d_mem, d_buf, d_quiet; of d_db the first alternative *)
      constructor; cbn [ps_mem ps_known ps_rows ps_buf ps_db ps_clear]; [reflexivity|exact Hm|exact Hbuf|left; reflexivity|left].
      split; [|exact H2]. intros r. rewrite in_app_iff, (H1 r). specialize (Hbuf r). split; [intros [H|H]|]; auto.
    - destruct clear; cbn [fst]; [|exact HD].
      (* d_known, d_mem, d_buf, d_quiet, d_db *)
      constructor; cbn [ps_mem ps_known ps_rows ps_buf ps_db ps_clear]; [reflexivity|exact Hm|intros r []|right; split; reflexivity|exact Hdb].
  Qed.

  Lemma pinv_init : PInv [] pst_init.
  Proof.
    left. constructor; cbn; try reflexivity; [apply rows_ok_nil|intros r; cbn; tauto|].
    intros x. split; [intros []|]. intros (s & e & l & c & [] & _).
  Qed.

  Theorem pinv_reachable ops : Forall wf_op ops -> PInv ops (prun ops).
  Proof.
    intros Hwf. apply (fold_left_hist PInv _ ops) with (h := []); [|exact pinv_init].
    intros ops1 st op Hop HI. apply (proj1 (Forall_forall _ _) Hwf) in Hop.
    destruct HI as [H|H]; [apply open_step|right; apply done_app, done_step]; assumption.
  Qed.

  Theorem atomic_visibility ops : Forall wf_op ops ->
    ps_db (prun ops) = [] \/ (same_as_tx (ps_db (prun ops)) /\ all_cov ops).
  Proof.
    intros Hwf. destruct (pinv_reachable ops Hwf) as [H|H]; [left; apply (o_db _ _ H)|].
    destruct (d_db _ _ H) as [Hd|[Hd _]]; [right; exact Hd|left; exact Hd].
  Qed.

  Theorem covered_is_applied ops : Forall wf_op ops -> ~ In DeliverEmpty ops -> all_cov ops ->
    same_as_tx (ps_db (prun ops)) \/
    (1 <= ps_trig (prun ops) /\ same_as_tx (ps_db (fst (pstep (prun ops) ApplyBuffered)))).
  Proof.
    intros Hwf Hne Hall. destruct (pinv_reachable ops Hwf) as [H|H].
    - right. assert (Hf : full (held (prun ops))) by (intros x Hx; apply (o_cov _ _ H), Hall, Hx).
      pose proof (open_full_tx _ _ H Hf) as Hb. pose proof (open_canonical _ _ H) as Hc.
      pose proof (o_mem _ _ H) as Hm. pose proof (o_db _ _ H) as Hd.
      (* nothing held is not full: seq 0 *)
      unfold held in *. destruct (prun ops) as [rows buf [p|] known db trig clear];
        cbn [ps_mem ps_buf ps_db ps_known ps_trig] in *; [|exact (False_ind _ (Hf 0 ltac:(lia)))].
      destruct Hm as (_ & Hl & Ht). assert (Hcv : covered p = true) by (apply covered_iff; assumption).
      split; [apply Ht, Hcv|]. unfold pstep. cbn [ps_mem]. rewrite Hcv, Hd. exact Hb.
    - destruct (d_db _ _ H) as [[Hd _]|(_ & _ & Hd)]; [left; exact Hd|contradiction].
  Qed.

  Theorem buffered_copies_removed ops : Forall wf_op ops ->
    let st := prun ops in
    ps_db st <> [] \/ ps_mem st = None /\ ps_known st = true ->
    (ps_clear st = true /\ ps_rows (fst (pstep st Clear)) = [] /\ ps_buf (fst (pstep st Clear)) = [])
    \/ (ps_rows st = [] /\ ps_buf st = []).
  Proof.
    intros Hwf st Hdone. subst st. destruct (pinv_reachable ops Hwf) as [H|H].
    - exfalso. pose proof (o_mem _ _ H) as Hm. destruct Hdone as [Hd|[Hd Hk]]; [exact (Hd (o_db _ _ H))|].
      rewrite Hd in Hm. congruence.
    - destruct (d_quiet _ _ H) as [Hq|Hq]; [left|right; exact Hq].
      split; [exact Hq|]. unfold pstep. rewrite Hq. split; reflexivity.
  Qed.

  Theorem unchunked_result : ps_db (prun [Deliver 0 last last (chunk 0 last)]) = tx.
  Proof.
    unfold prun. cbn [fold_left]. unfold pstep. cbn [pst_init ps_mem ps_known ps_rows ps_buf ps_db ps_clear ps_trig andb].
    rewrite !Z.eqb_refl. rewrite chunk_full.
    (* without the clear, destruct would take Hnd into the proof term and the closed statement
       would gain the premise NoDup (map fst tx) *)
    clear Hnd. destruct tx; reflexivity.
  Qed.
End Atomic.
