From Coq Require Import List ZArith Bool Lia.
From Corro Require Import Lib.ListFacts Model.Wire Model.ClusterGate.
Import ListNotations.
Open Scope Z_scope.

(* induction principle with a hypothesis for every alternative of a sum; the sum's case comes first *)
Section DescInd.
  Variable P : desc -> Prop.
  Hypothesis HSum : forall tb alts, Forall P alts -> P (DSum tb alts).
  Hypothesis HUInt : forall n, P (DUInt n).
  Hypothesis HI64 : P DI64.
  Hypothesis HFixed : forall n, P (DFixed n).
  Hypothesis HBytes : P DBytes.
  Hypothesis HStr : P DStr.
  Hypothesis HOpt : forall d, P d -> P (DOpt d).
  Hypothesis HVec32 : forall d, P d -> P (DVec32 d).
  Hypothesis HVec64 : forall d, P d -> P (DVec64 d).
  Hypothesis HPair : forall a b, P a -> P b -> P (DPair a b).
  Hypothesis HEof : forall d, P d -> P (DEofDefault d).
  Hypothesis HMin : forall n d, P d -> P (DMin n d).
  Hypothesis HUnit : P DUnit.

  Fixpoint desc_ind' (d : desc) : P d :=
    match d with
    | DUInt n => HUInt n
    | DI64 => HI64
    | DFixed n => HFixed n
    | DBytes => HBytes
    | DStr => HStr
    | DOpt d' => HOpt d' (desc_ind' d')
    | DVec32 d' => HVec32 d' (desc_ind' d')
    | DVec64 d' => HVec64 d' (desc_ind' d')
    | DPair a b => HPair a b (desc_ind' a) (desc_ind' b)
    | DSum tb alts =>
      HSum tb alts ((fix go (l : list desc) : Forall P l :=
                       match l with
                       | [] => Forall_nil P
                       | x :: t => Forall_cons x (desc_ind' x) (go t)
                       end) alts)
    | DEofDefault d' => HEof d' (desc_ind' d')
    | DMin n d' => HMin n d' (desc_ind' d')
    | DUnit => HUnit
    end.
End DescInd.

Lemma le_bytes_length n u : length (le_bytes n u) = n.
Proof. revert u; induction n as [|k IH]; intros u; cbn; [reflexivity|apply f_equal, IH]. Qed.

Lemma le_val_bytes : forall n u, le_val (le_bytes n u) = u mod 256 ^ Z.of_nat n.
Proof.
  induction n as [|k IH]; intros u.
  - rewrite Z.mod_1_r. reflexivity.
  - cbn [le_bytes le_val]. rewrite IH, Nat2Z.inj_succ, Z.pow_succ_r by lia.
    assert (0 < 256 ^ Z.of_nat k) by (apply Z.pow_pos_nonneg; lia).
    rewrite (Z.rem_mul_r u 256 (256 ^ Z.of_nat k)) by lia. reflexivity.
Qed.

Lemma take_z_app : forall h t, take_z (Z.of_nat (length h)) (h ++ t) = Some (h, t).
Proof.
  induction h as [|b h IH]; intros t.
  - destruct t; reflexivity.
  - cbn [length app take_z]. destruct (Z.leb_spec (Z.of_nat (S (length h))) 0); [lia|].
    replace (Z.of_nat (S (length h)) - 1) with (Z.of_nat (length h)) by lia. rewrite IH. reflexivity.
Qed.

Lemma take_n_app : forall n h t, length h = n -> take_n n (h ++ t) = Some (h, t).
Proof.
  intros n h t <-. induction h as [|b h IH]; cbn; [|rewrite IH]; reflexivity.
Qed.

Lemma read_uint_le n u rest : 0 <= u < 256 ^ Z.of_nat n ->
  read_uint n (le_bytes n u ++ rest) = Some (u, rest).
Proof.
  intros Hu. unfold read_uint. rewrite (take_n_app n _ rest (le_bytes_length n u)).
  rewrite le_val_bytes, Z.mod_small by lia. reflexivity.
Qed.

(* a length or a tag *)
Lemma read_nat_le n k rest : Z.of_nat k < 256 ^ Z.of_nat n ->
  read_uint n (le_bytes n (Z.of_nat k) ++ rest) = Some (Z.of_nat k, rest).
Proof. intros H. apply read_uint_le. lia. Qed.

Lemma of_to_u64 i : - 2 ^ 63 <= i < 2 ^ 63 -> of_u64 (i mod 2 ^ 64) = i.
Proof.
  intros H. unfold of_u64. destruct (Z.ltb_spec (i mod 2 ^ 64) (2 ^ 63)); Z.div_mod_to_equations; lia.
Qed.

Lemma leb_ltb_range lo hi x : (lo <=? x) && (x <? hi) = true -> lo <= x < hi.
Proof. apply andb_iff; [apply Z.leb_le|apply Z.ltb_lt]. Qed.

(* wt, enc and dec look a sum's alternative up in [map f alts]; these state them on [alts] *)
Lemma wt_sum tb alts tag x : wt (DSum tb alts) (VT tag x) = true ->
  exists d, nth_error alts tag = Some d /\ Z.of_nat tag < 256 ^ Z.of_nat tb /\ wt d x = true.
Proof.
  cbn [wt]. rewrite nth_error_map. intros H. apply andb_true_iff in H as [Ht Hw]. apply Z.ltb_lt in Ht.
  destruct (nth_error alts tag) as [d|]; [|discriminate]. exists d. auto.
Qed.

Lemma enc_sum tb alts tag d x : nth_error alts tag = Some d ->
  enc (DSum tb alts) (VT tag x) = le_bytes tb (Z.of_nat tag) ++ enc d x.
Proof. intros E. cbn [enc]. rewrite nth_error_map, E. reflexivity. Qed.

Lemma dec_sum tb alts tag d bs : nth_error alts tag = Some d -> Z.of_nat tag < 256 ^ Z.of_nat tb ->
  dec (DSum tb alts) (le_bytes tb (Z.of_nat tag) ++ bs) =
  match dec d bs with ROk x r => ROk (VT tag x) r | e => e end.
Proof.
  intros E Ht. cbn [dec]. rewrite read_nat_le by exact Ht.
  assert (tag < length alts)%nat by (apply nth_error_Some; congruence).
  destruct (Z.leb_spec (Z.of_nat (length alts)) (Z.of_nat tag)); [lia|].
  rewrite Nat2Z.id, nth_error_map, E. reflexivity.
Qed.

Lemma min_list_cons x y l : min_list (x :: y :: l) = Nat.min x (min_list (y :: l)).
Proof. reflexivity. Qed.

Lemma min_list_le l x : In x l -> (min_list l <= x)%nat.
Proof.
  induction l as [|y l IH]; intros Hin; [destruct Hin|].
  destruct Hin as [->|Hin].
  - destruct l; cbn; lia.
  - specialize (IH Hin). destruct l as [|z l]; [destruct Hin|].
    rewrite min_list_cons. lia.
Qed.

Lemma min_list_mono (f g : desc -> nat) l :
  Forall (fun d => (f d <= g d)%nat) l -> (min_list (map f l) <= min_list (map g l))%nat.
Proof.
  induction 1 as [|x l Hx Hl IH]; [cbn; lia|]. destruct l as [|y l]; [exact Hx|].
  cbn [map] in *. rewrite !min_list_cons. lia.
Qed.

Lemma min_bytes_le_real : forall d, desc_ok d = true -> (min_bytes d <= real_min d)%nat.
Proof.
  induction d using desc_ind'; intros Hok; cbn [min_bytes real_min desc_ok] in *; try lia.
  - apply andb_true_iff in Hok as [_ Hoks]. rewrite forallb_forall in Hoks.
    apply Nat.add_le_mono_l, min_list_mono. rewrite Forall_forall in *. intros d Hd. apply H; [exact Hd|apply Hoks, Hd].
  - apply andb_true_iff in Hok as [Ha Hb]. specialize (IHd1 Ha). specialize (IHd2 Hb). lia.
  - apply andb_true_iff in Hok as [Hn _]. apply Nat.leb_le in Hn. exact Hn.
Qed.

(* a vector's elements, given what the induction knows of each: they are long enough for the
   pre-check (k = min_bytes) and for any fuel above the number of bytes (one byte each) *)
Lemma vec_elems {f : list Z -> res} {e : val -> list Z} {p : val -> bool} {m} k l :
  (forall x, p x = true -> (m <= length (e x))%nat /\ forall r, f (e x ++ r) = ROk x r) ->
  (1 <= m)%nat -> (k <= m)%nat -> forallb p l = true -> forall rest,
  let bs := flat_map e l ++ rest in
  (k * length l <= length bs)%nat /\
  forall fuel, (length bs < fuel)%nat -> vec_loop f fuel (Z.of_nat (length l)) bs = ROk (VL l) rest.
Proof.
  intros Hel H1 Hk. induction l as [|x l IH]; cbn [flat_map length forallb]; intros Hall rest.
  - split; [lia|]. intros [|fuel] _; reflexivity.
  - apply andb_true_iff in Hall as [Hx Hall]. pose proof (Hel x Hx) as [L D]. pose proof (IH Hall rest) as [Hge Hloop].
    rewrite <- app_assoc, app_length. split; [lia|]. intros [|fuel] Hf; [lia|].
    cbn [vec_loop]. destruct (Z.leb_spec (Z.of_nat (S (length l))) 0); [lia|].
    replace (Z.of_nat (S (length l)) - 1) with (Z.of_nat (length l)) by lia.
    rewrite D, Hloop by lia. reflexivity.
Qed.

(* One induction for both: the decoders of vectors look at lengths before they loop (the
   pre-check of vec32, the fuel), so the round trip of a vector needs the length bound of its
   elements. *)
Lemma enc_len_dec : forall d, desc_ok d = true -> forall v, wt d v = true ->
  (real_min d <= length (enc d v))%nat /\ forall rest, dec d (enc d v ++ rest) = ROk v rest.
Proof.
  induction d using desc_ind'; intros Hok v Hwt.
  { (* a sum first: enc_sum and dec_sum speak of enc and dec before they are unfolded *)
    destruct v as [| | | | |tag x|]; try discriminate.
    apply andb_true_iff in Hok as [_ Hoks]. rewrite forallb_forall in Hoks. rewrite Forall_forall in H.
    pose proof (wt_sum tb alts tag x Hwt) as (d & Ed & Htag & Hw). pose proof (nth_error_In _ _ Ed) as Hin.
    pose proof (H d Hin (Hoks d Hin) x Hw) as [L D]. rewrite (enc_sum _ _ _ _ _ Ed). split.
    + rewrite app_length, le_bytes_length. pose proof (min_list_le _ _ (in_map real_min _ _ Hin)). cbn [real_min]. lia.
    + intros rest. rewrite <- app_assoc, (dec_sum _ _ _ _ _ Ed Htag), D. reflexivity. }
  all: cbn [enc dec wt desc_ok real_min] in *.
  - destruct v; try discriminate. split; [rewrite le_bytes_length; lia|]. intros rest.
    rewrite read_uint_le by (apply leb_ltb_range, Hwt). reflexivity.
  - destruct v as [i| | | | | |]; try discriminate. split; [rewrite le_bytes_length; lia|]. intros rest.
    apply leb_ltb_range in Hwt. rewrite read_uint_le by (apply (Z.mod_pos_bound i (2 ^ 64)); lia).
    rewrite of_to_u64 by exact Hwt. reflexivity.
  - destruct v; try discriminate. apply andb_true_iff in Hwt as [_ H]. apply Nat.eqb_eq in H.
    split; [lia|]. intros rest. rewrite (take_n_app n bs rest H). reflexivity.
  - destruct v; try discriminate. apply andb_true_iff in Hwt as [_ H]. apply Z.ltb_lt in H.
    split; [rewrite app_length, le_bytes_length; lia|]. intros rest.
    rewrite <- app_assoc, read_nat_le, take_z_app by exact H. reflexivity.
  - destruct v; try discriminate. apply andb_true_iff in Hwt as [Hw Hu]. apply andb_true_iff in Hw as [_ H].
    apply Z.ltb_lt in H. split; [rewrite app_length, le_bytes_length; lia|]. intros rest.
    rewrite <- app_assoc, read_nat_le, take_z_app, Hu by exact H. reflexivity.
  - destruct v as [| |[x|]| | | |]; try discriminate.
    + split; [cbn; lia|]. intros rest. cbn [app Z.eqb]. rewrite (proj2 (IHd Hok x Hwt)). reflexivity.
    + split; [cbn; lia|reflexivity].
  - (* vec32: the pre-check passes since every element is at least min_bytes long *)
    destruct v as [| | |l| | |]; try discriminate. split; [rewrite app_length, le_bytes_length; lia|]. intros rest.
    apply andb_true_iff in Hok as [Hmin Hokd]. apply Nat.leb_le in Hmin.
    apply andb_true_iff in Hwt as [Hlen Hall]. apply Z.ltb_lt in Hlen.
    rewrite <- app_assoc, read_nat_le by exact Hlen.
    pose proof (vec_elems (min_bytes d) l (IHd Hokd) Hmin (min_bytes_le_real d Hokd) Hall rest) as [Hge Hloop].
    rewrite (proj2 (Z.ltb_ge _ _)) by lia. apply Hloop. lia.
  - (* vec64: the same without a pre-check, so k = 0 will do *)
    destruct v as [| | |l| | |]; try discriminate. split; [rewrite app_length, le_bytes_length; lia|]. intros rest.
    apply andb_true_iff in Hok as [Hmin Hokd]. apply Nat.leb_le in Hmin.
    apply andb_true_iff in Hwt as [Hlen Hall]. apply Z.ltb_lt in Hlen.
    rewrite <- app_assoc, read_nat_le by exact Hlen.
    apply (proj2 (vec_elems 0 l (IHd Hokd) Hmin (Nat.le_0_l _) Hall rest)). lia.
  - destruct v; try discriminate. apply andb_true_iff in Hok as [Ha Hb]. apply andb_true_iff in Hwt as [Hx Hy].
    pose proof (IHd1 Ha _ Hx) as [L1 D1]. pose proof (IHd2 Hb _ Hy) as [L2 D2]. split; [rewrite app_length; lia|]. intros rest.
    rewrite <- app_assoc, D1, D2. reflexivity.
  - pose proof (IHd Hok v Hwt) as [L D]. split; [exact L|]. intros rest. rewrite D. reflexivity.
  - apply andb_true_iff in Hok as [_ Hd]. apply IHd; assumption.
  - destruct v; try discriminate. split; [lia|reflexivity].
Qed.

Lemma enc_min_bytes d v : desc_ok d = true -> wt d v = true -> (min_bytes d <= length (enc d v))%nat.
Proof.
  intros Hok Hwt. pose proof (min_bytes_le_real d Hok). pose proof (proj1 (enc_len_dec d Hok v Hwt)). lia.
Qed.

Theorem dec_enc : forall d, desc_ok d = true -> forall v rest, wt d v = true ->
  dec d (enc d v ++ rest) = ROk v rest.
Proof. intros d Hok v rest Hwt. exact (proj2 (enc_len_dec d Hok v Hwt) rest). Qed.

(* a frame cut right before a trailing #[speedy(default_on_eof)] field *)
Lemma dec_pair_eof_default a b x :
  desc_ok a = true -> wt a x = true -> dec b [] = REof ->
  dec (DPair a (DEofDefault b)) (enc a x) = ROk (VP x (default_of b)) [].
Proof.
  intros Ha Hx Hb. cbn [dec]. rewrite <- (app_nil_r (enc a x)), (dec_enc a Ha x [] Hx), Hb. reflexivity.
Qed.

(* the decision rule of agent/uni.rs (Model/ClusterGate.v), for Props/C16.v *)
Lemma uni_delivered_iff mine frames v :
  In v (uni_deliver mine frames) <-> exists c, In (c, v) frames /\ frame_cluster c = mine.
Proof.
  unfold uni_deliver. rewrite <- in_rev, in_map_iff. split.
  - intros ([c v'] & <- & Hin). apply filter_In in Hin as [Hin Hacc]. apply Z.eqb_eq in Hacc. eauto.
  - intros (c & Hin & Hc). exists (c, v). split; [reflexivity|]. apply filter_In. split; [exact Hin|].
    apply Z.eqb_eq. auto.
Qed.
