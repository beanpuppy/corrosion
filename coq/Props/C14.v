(* C14 — Row-level update notifications reflect every changed key and its final fate.
   Model: Model/Updates.v (batch_candidates' cl cache and buffer, handle_candidates).
   Proofs: Proofs/UpdatesProofs.v. *)
From Coq Require Import List ZArith Bool Lia.
From Corro Require Import Gen.Consts Model.Updates Model.Crdt Proofs.UpdatesProofs Proofs.CrdtProofs.
Import ListNotations.
Open Scope Z_scope.

(* For every sequence of received candidate maps and flushes (any arrival order,
   any batching) over at most MAX distinct keys, once the feed has been flushed:
   - every key that was received has been notified, and its LAST notification
     carries the greatest causal length received for it;
   - per key, notifications never go back to an older state;
   - nothing is notified that was not received. *)
Theorem C14_final_fate : forall U ops,
  bounded updates_max_cache_entries U (received ops) ->
  let ns := snd (urun u_init (ops ++ [UFlush])) in
  (forall k M, maxcl k (received ops) None = Some M -> lastn k ns None = Some M) /\
  (forall k, mono_upto k ns None) /\
  (forall k c, lastn k ns None = Some c -> maxcl k (received ops) None = Some c).
Proof. exact (updates_final_fate updates_max_cache_entries updates_keep_cache_entries). Qed.
Print Assumptions C14_final_fate.

(* the notification says "deleted" exactly for an even causal length, which is
   exactly when the CRDT layer (Model/Crdt.v, validated against cr-sqlite in C01)
   shows no row; causal lengths only grow (C01: merge_cl_monotone), so the greatest
   causal length received is the row's current one as soon as the change that
   produced it has been matched *)
Theorem C14_deleted_iff_even : forall cl, kind_of cl = NDel <-> Z.odd cl = false.
Proof.
  intros cl. unfold kind_of. rewrite <- Z.negb_even. destruct (Z.even cl); split; intros H; try reflexivity; discriminate.
Qed.
Print Assumptions C14_deleted_iff_even.

(* the fact of C01 that the comment above appeals to *)
Check merge_cl_monotone : forall o r, local_cl o <= local_cl (merge_row o r).

(* the invariant behind C14_final_fate, kept by a run from any state that has it *)
Check urun_inv : forall maxn keep U ops st seen ns,
  uinv st seen ns -> bounded maxn U (seen ++ received ops) ->
  uinv (fst (urun_with maxn keep st ops)) (seen ++ received ops) (ns ++ snd (urun_with maxn keep st ops)).

(* With MAX or more other keys, all new, between two candidates of the same key the
   cache exceeds MAX entries, is trimmed and forgets the key, and an older state IS
   notified after a newer one: the bound in C14_final_fate is necessary (2000 other
   keys in between, 2001 entries cached; real constants). *)
Definition ev_keys : list (ukey * Z) := map (fun i => ([Z.of_nat i], 1)) (seq 1 2000).
Definition ev_ops : list uop := [URecv [([0], 3)]; UFlush; URecv ev_keys; UFlush; URecv [([0], 2)]; UFlush].

Theorem C14_evict_refuted :
  let ns := snd (urun u_init ev_ops) in
  lastn [0] ns None = Some 2 /\ maxcl [0] (received ev_ops) None = Some 3 /\ ~ mono_upto [0] ns None.
Proof.
  (* numbered_keys_fresh is about a variable n; the ascription names ev_keys, so that the numeral 2000 is met
     once, when the two forms are converted *)
  pose proof (numbered_keys_fresh 2000 1 : NoDup (ikeys ev_keys) /\ ~ In [0] (ikeys ev_keys) /\ length ev_keys = 2000%nat)
    as (Hnd & Hk & Hlen).
  (* the length in Z, where the three bounds are stated: computed here once *)
  assert (HlenZ : Z.of_nat (length ev_keys) = 2000) by (rewrite Hlen; reflexivity).
  apply (eviction_goes_back updates_max_cache_entries updates_keep_cache_entries [0] 3 2 ev_keys Hnd Hk);
    rewrite ?HlenZ.
  - unfold updates_max_cache_entries. lia.
  - unfold updates_keep_cache_entries. lia.
  - lia.
Qed.
Print Assumptions C14_evict_refuted.

Example C14_nonvacuous :
  let ops := [URecv [([1], 1); ([2], 1)]; URecv [([1], 2)]; UFlush; URecv [([1], 3)]; URecv [([1], 2); ([2], 2)]] in
  snd (urun u_init (ops ++ [UFlush])) =
    [(NDel, [1], 2); (NUpd, [2], 1); (NUpd, [1], 3); (NDel, [2], 2)] /\
  bounded updates_max_cache_entries [[1]; [2]] (received ops).
Proof.
  split; [vm_compute; reflexivity|]. split; [vm_compute; discriminate|].
  cbn. intros k H. intuition (subst; auto).
Qed.
