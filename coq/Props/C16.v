(* C16 — Nodes of different clusters never exchange data.
   Decision rules (Model/ClusterGate.v) + the wire-level fact that a frame
   without a cluster id decodes to cluster 0 (Model/Wire.v, WireDescs.v).
   Proofs: Proofs/WireProofs.v (uni_delivered_iff, dec_sum, dec_pair_eof_default); the rest is proved here. *)
From Coq Require Import List ZArith Bool Lia.
From Corro Require Import Model.ClusterGate Model.Wire Model.WireDescs Proofs.WireProofs.
Import ListNotations.
Open Scope Z_scope.

(* a broadcast change is delivered only if the frame's cluster id -- or 0 when
   the frame carries none -- equals the node's cluster id *)
Theorem C16_uni_applied_only_same_cluster : forall mine frames v,
  In v (uni_deliver mine frames) ->
  exists c, In (c, v) frames /\ frame_cluster c = mine.
Proof. apply uni_delivered_iff. Qed.
Print Assumptions C16_uni_applied_only_same_cluster.

Theorem C16_uni_same_cluster_all_delivered : forall mine frames c v,
  In (c, v) frames -> frame_cluster c = mine -> In v (uni_deliver mine frames).
Proof. intros mine frames c v Hin Hc. apply uni_delivered_iff. eauto. Qed.
Print Assumptions C16_uni_same_cluster_all_delivered.

(* wire level: a UniPayload frame cut right before its cluster id still
   decodes, with cluster id 0 (what `#[speedy(default_on_eof)]` does) *)
Theorem C16_absent_cluster_id_is_zero : forall data,
  wt d_uni_payload_v1 data = true ->
  dec d_uni_payload (le_bytes 4 0 ++ enc d_uni_payload_v1 data) = ROk (VT 0 (VP data (VN 0))) [].
Proof.
  intros data Hwt. unfold d_uni_payload, dstruct.
  rewrite (dec_sum 4 [_] 0 _ _ eq_refl) by reflexivity.
  rewrite (dec_pair_eof_default d_uni_payload_v1 d_cluster_id data); [reflexivity| |exact Hwt|reflexivity].
  vm_compute. reflexivity.
Qed.
Print Assumptions C16_absent_cluster_id_is_zero.

(* a sync session from another cluster: the first and only answer is the rejection *)
Theorem C16_serve_rejects_other_cluster : forall mine theirs,
  mine <> theirs -> serve_first mine theirs = FirstRejectDifferentCluster.
Proof. intros mine theirs H. unfold serve_first. apply Z.eqb_neq in H. rewrite H. reflexivity. Qed.
Print Assumptions C16_serve_rejects_other_cluster.

Theorem C16_serve_same_cluster : forall c, serve_first c c = FirstState.
Proof. intros c. unfold serve_first. rewrite Z.eqb_refl. reflexivity. Qed.
Print Assumptions C16_serve_same_cluster.

(* sync partners and broadcast targets all belong to the node's cluster, never itself *)
Theorem C16_partners_same_cluster : forall mine self ms a,
  In a (sync_candidates mine self ms) ->
  exists m, In m ms /\ mb_id m = a /\ mb_cluster m = mine /\ a <> self.
Proof.
  intros mine self ms a H. unfold sync_candidates in H. apply in_map_iff in H. destruct H as (m & <- & Hin).
  apply filter_In in Hin. destruct Hin as [Hin Hf]. apply andb_true_iff in Hf as [H1 H2].
  apply negb_true_iff, Z.eqb_neq in H1. apply Z.eqb_eq in H2. exists m. auto.
Qed.
Print Assumptions C16_partners_same_cluster.

Theorem C16_bcast_targets_same_cluster : forall mine self ms a,
  In a (bcast_allowed mine self ms) ->
  exists m, In m ms /\ mb_id m = a /\ mb_cluster m = mine /\ a <> self.
Proof. exact C16_partners_same_cluster. Qed.
Print Assumptions C16_bcast_targets_same_cluster.

Theorem C16_priority_targets_ring0_same_cluster : forall mine ms a,
  In a (bcast_priority mine ms) ->
  exists m, In m ms /\ mb_id m = a /\ mb_cluster m = mine /\ mb_ring0 m = true.
Proof.
  intros mine ms a H. unfold bcast_priority in H. apply in_map_iff in H. destruct H as (m & <- & Hin).
  apply filter_In in Hin. destruct Hin as [Hin Hf]. apply andb_true_iff in Hf as [H1 H2].
  apply Z.eqb_eq in H1. exists m. auto.
Qed.
Print Assumptions C16_priority_targets_ring0_same_cluster.

Example C16_nonvacuous :
  uni_deliver 0 [(Some 0, 1); (Some 5, 2); (None, 3); (Some 0, 4)] = [4; 3; 1] /\
  sync_candidates 3 99 [mkMember 100 3 true; mkMember 101 3 false; mkMember 102 0 true; mkMember 103 9 true] = [100; 101].
Proof. vm_compute. split; reflexivity. Qed.
