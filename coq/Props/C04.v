(* C04 — Sync requests ask for everything the peer can give and nothing it cannot.
   Model: Model/Needs.v (transcription of SyncStateV1::compute_available_needs).
   Proofs: Proofs/NeedsProofs.v; the two composition theorems come from Proofs/SessionProofs.v. *)
From Coq Require Import List ZArith Bool Lia.
From Corro Require Import Lib.Ivl Model.Book Model.BookOps Model.Needs Proofs.BookProofs Proofs.NeedsProofs Proofs.SessionProofs.
Import ListNotations.
Open Scope Z_scope.

(* every requested version range stays within the peer's advertised head, and
   nothing is ever requested for the node's own actor id *)
Theorem C04_within_head_never_self : forall us other a v,
  wf_state other -> (forall a h, In (a, h) (ss_heads us) -> 0 <= h) ->
  req_full (compute_available_needs us other) a v ->
  a <> ss_actor us /\ exists head, In (a, head) (ss_heads other) /\ 1 <= v <= head.
Proof. exact needs_within_head. Qed.
Print Assumptions C04_within_head_never_self.

(* every version the peer advertises as fully held and the node lacks (listed
   as needed, beyond its head, or actor unknown) is requested -- for any number
   of actors, any heads, any need ranges, any partial maps *)
Theorem C04_complete_full : forall us other a v,
  wf_state other -> a <> ss_actor us ->
  peer_holds other a v -> we_lack us a v ->
  req_full (compute_available_needs us other) a v.
Proof. exact needs_complete_full. Qed.
Check C04_complete_full : forall us other a v,
  wf_state other -> a <> ss_actor us ->
  (exists head, In (a, head) (ss_heads other) /\ 1 <= v <= head /\
     ~ (exists ns, zget a (ss_need other) = Some ns /\ mem v ns) /\
     ~ (exists ps, zget a (ss_partial other) = Some ps /\ exists q, In (v, q) ps)) ->
  (zget a (ss_heads us) = None \/
   (exists h, zget a (ss_heads us) = Some h /\ h < v) \/
   (exists ns, zget a (ss_need us) = Some ns /\ mem v ns)) ->
  exists l s e, In (a, l) (compute_available_needs us other) /\ In (Full s e) l /\ s <= v <= e.
Print Assumptions C04_complete_full.

(* a version the node holds partially and the peer holds fully: the requested
   sequence numbers are exactly the node's missing ones *)
Theorem C04_partial_exact : forall us other a v seqs ours q,
  wf_state other -> a <> ss_actor us ->
  zget a (ss_partial us) = Some ours -> uniq_keys ours -> In (v, seqs) ours ->
  peer_holds other a v ->
  (req_seq (compute_available_needs us other) a v q <-> mem q seqs).
Proof. exact needs_partial_held. Qed.
Print Assumptions C04_partial_exact.

(* Composition with C02 (the advertisement is the exact partition of the bookkeeping): stated
   on the bookkeeping states themselves.  bA = the requester's bookkeeping for origin actor a,
   bB = the server's, both satisfying the invariant every reachable state satisfies (C02);
   ss_of = the SyncStateV1 each node generates from it.  Every version the server holds and the
   requester lists as needed or has not heard of is requested in full ... *)
Theorem C04_request_covers_what_peer_holds : forall meA meB a bA rsA bB rsB v,
  Inv bA rsA -> Inv bB rsB -> a <> meA -> 1 <= v ->
  classify bB v = Held ->
  (classify bA v = Needed \/ classify bA v = Beyond) ->
  req_full (compute_available_needs (ss_of meA a (sync_actor bA)) (ss_of meB a (sync_actor bB))) a v.
Proof. exact request_covers_what_peer_holds. Qed.
Print Assumptions C04_request_covers_what_peer_holds.

(* ... and of a version the requester holds partially, exactly its missing seqs are requested *)
Theorem C04_partial_request_is_exactly_the_missing_seqs : forall meA meB a bA rsA bB rsB v p q,
  Inv bA rsA -> Inv bB rsB -> a <> meA -> 1 <= v ->
  classify bB v = Held -> classify bA v = PartialC -> aget v (partials bA) = Some p ->
  (req_seq (compute_available_needs (ss_of meA a (sync_actor bA)) (ss_of meB a (sync_actor bB))) a v q
   <-> mem q (gaps 0 (p_last p) (p_seqs p))).
Proof. exact partial_request_is_exactly_the_missing_seqs. Qed.
Print Assumptions C04_partial_request_is_exactly_the_missing_seqs.

(* the hypotheses of the composition are met by reachable states: the requester applied
   versions 1-2 and 5 of actor 7 (so 3-4 are needed), the server applied 1-5 *)
Example C04_composition_nonvacuous :
  let bA := st_bv (fst (bstep (fst (bstep bstate_init (OpInsert [(1, 2)]))) (OpInsert [(5, 5)]))) in
  let bB := st_bv (fst (bstep bstate_init (OpInsert [(1, 5)]))) in
  inv_b bA (needed bA) = true /\ inv_b bB (needed bB) = true /\
  classify bB 3 = Held /\ classify bA 3 = Needed /\ classify bA 9 = Beyond /\
  compute_available_needs (ss_of 1 7 (sync_actor bA)) (ss_of 2 7 (sync_actor bB)) = [(7, [Full 3 4])].
Proof. vm_compute. repeat split. Qed.

Example C04_nonvacuous :
  let us := mkSstate 1 [(2, 10)] [(2, [(3, 5)])] [(2, [(7, [(0, 2)])])] in
  let other := mkSstate 9 [(2, 13)] [(2, [(4, 4)])] [(2, [(7, [(0, 0); (5, 9)])])] in
  compute_available_needs us other =
    [(2, [Full 3 3; Full 5 5; Partial 7 [(1, 2)]; Full 11 13])].
Proof. vm_compute. reflexivity. Qed.
