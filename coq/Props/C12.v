(* C12 — Attaching or resuming a subscription never skips or repeats a change silently.
   Model: Model/Catchup.v (catch_up_sub's reconciliation as a function of what it observes of
   the producer; the client's continuity rule).  The retry count, whether the live forwarding
   filters, and the client rule's text come from the source (tools/catchup2coq.py ->
   Gen/CatchupCfg.v).  Proofs: Proofs/CatchupProofs.v.
   PARTIAL: the tokio interleavings that produce the observations (first read, peek, watch,
   re-reads, buffered and live ids) are not enumerated against the real code; they are
   sampled by the harness under schedule knobs, and every sampled observation is run
   through this model. *)
From Coq Require Import List ZArith Bool Lia.
From Corro Require Import Model.Catchup Gen.CatchupCfg Proofs.CatchupProofs.
Import ListNotations.
Open Scope Z_scope.

(* whatever the first read, the peeked event or watch value, the re-reads, the buffered and
   the live events were -- as long as the broadcast delivers change events in id order without
   loss and the log is complete up to what a read reports -- the ids a subscriber receives
   after its snapshot (or its resume point N) are N+1, N+2, ... with no gap and no repetition,
   also when the stream stops with "could not catch up" *)
Theorem C12_stream_is_consecutive : forall i d stopped,
  forward_filters = true -> cin_wf i ->
  catch_up catchup_attempts forward_filters i = (d, stopped) ->
  consecutive_from (ci_from i) d = true.
Proof. intros i d stopped ->. apply catch_up_consecutive. Qed.
Print Assumptions C12_stream_is_consecutive.

(* the configuration generated from the current source satisfies the theorem's premise *)
Theorem C12_source_filters : forward_filters = true /\ (1 <= catchup_attempts)%nat.
Proof. split; [reflexivity|vm_compute; lia]. Qed.
Print Assumptions C12_source_filters.

(* without the filter (the code before fix 12ee0bc) the claim is false: the broadcast of
   changes the snapshot already contains arrives after the catch-up *)
Theorem C12_unfiltered_refuted :
  let i := mkCin 3 3 None 3 [] [] [1; 2; 3; 4; 5] in
  cin_wf i /\ catch_up 5 false i = ([1; 2; 3; 4; 5], false) /\ consecutive_from 3 [1; 2; 3; 4; 5] = false /\
  catch_up 5 true i = ([4; 5], false).
Proof.
  split; [|vm_compute; repeat split].
  constructor; [cbn; lia|]. exists 0. split; [vm_compute; reflexivity|intros _; cbn; lia].
Qed.
Print Assumptions C12_unfiltered_refuted.

(* the client: accepted changes are consecutive after the end-of-query id, every other one is reported *)
Theorem C12_client_accepts_consecutive : forall ids start,
  consecutive_from start (accepted (client_run (Some start) (map CChange ids))) = true.
Proof. exact client_accepts_consecutive. Qed.
Print Assumptions C12_client_accepts_consecutive.

Theorem C12_client_reports_every_gap : forall ids start,
  length (client_run (Some start) (map CChange ids)) = length ids /\
  (consecutive_from start ids = true <-> client_run (Some start) (map CChange ids) = map CAccept ids).
Proof. exact client_reports_every_gap. Qed.
Print Assumptions C12_client_reports_every_gap.

Example C12_nonvacuous :
  (* an event was broadcast before the subscription and committed after the first read:
     the watch says 4, the first read says 3, the re-read finds it; 5 and 6 were buffered *)
  let i := mkCin 1 3 None 4 [4] [5; 6] [7] in
  cin_wf i /\ catch_up catchup_attempts forward_filters i = ([2; 3; 4; 5; 6; 7], false) /\
  (* never catching up ends the stream after a consecutive prefix *)
  catch_up catchup_attempts forward_filters (mkCin 1 3 (Some 6) 0 [3; 3; 4; 4; 4] [7] []) = ([2; 3; 4], true).
Proof.
  split; [|vm_compute; repeat split].
  constructor; [cbn; lia|]. exists 4. split; [vm_compute; reflexivity|intros _; cbn; lia].
Qed.
