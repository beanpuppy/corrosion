(* C05 — A sync server only sends what it holds and never declares unknown versions empty.
   Model: Model/Serve.v (process_sync filter, handle_need, send_change_chunks over
   an abstraction of the server database).  Proofs: Proofs/ServeProofs.v. *)
From Coq Require Import List ZArith Bool Lia.
From Corro Require Import Lib.Ivl Gen.NeedSql Model.Chunk Model.Serve Proofs.ChunkProofs Proofs.ServeProofs.
Import ListNotations.
Open Scope Z_scope.

(* Full need: every version declared empty was requested and is neither live,
   nor (partially) buffered, nor listed as needed -- for every server state *)
Theorem C05_full_need_empty_only_if_cleared : forall sv s e lo hi v,
  In (MEmpty lo hi) (handle_need_full sv s e) -> lo <= v <= hi ->
  s <= v <= e /\ holds_live sv v = false /\ holds_buf sv v = false /\ memb v (sv_gaps sv) = false.
Proof. exact full_empty_only_if_cleared. Qed.
Print Assumptions C05_full_need_empty_only_if_cleared.

Theorem C05_partial_need_empty_only_if_cleared : forall sv v seqs lo hi,
  In (MEmpty lo hi) (handle_need_partial sv v seqs) ->
  lo = v /\ hi = v /\ holds_live sv v = false /\ holds_buf sv v = false /\ memb v (sv_gaps sv) = false.
Proof. exact partial_empty_only_if_cleared. Qed.
Print Assumptions C05_partial_need_empty_only_if_cleared.

(* every change sent lies inside the seq range of the changeset carrying it and
   the changeset's range lies inside the range being served (rows ordered by seq) *)
Theorem C05_changes_inside_their_range : forall rz v last rows a b m,
  wf_input (map (fun r => mkChg (fst r) rz (snd r)) rows) a b = true ->
  In m (send_chunks rz v last rows a b) ->
  match m with
  | MFull _ r s e _ => Forall (fun x => s <= fst x <= e) r /\ a <= s /\ e <= b
  | MEmpty _ _ => False
  end.
Proof. exact send_chunks_in_range. Qed.
Print Assumptions C05_changes_inside_their_range.

(* answers to buffered (partially held) versions are Full changesets about that version only *)
Theorem C05_buffered_answers_are_full : forall sv v q m,
  In m (buffered_msgs sv v q) -> exists r s e l, m = MFull v r s e l.
Proof. exact buffered_msgs_only_full. Qed.
Print Assumptions C05_buffered_answers_are_full.

(* a partially buffered version is answered with sub-ranges of exactly the ranges held -- under a
   hypothesis on the buffered rows that is assumed, and asks more than it means to: see the comment
   at Proofs/ServeProofs.v buffered_range_within_held *)
Theorem C05_buffered_within_held : forall sv v q m,
  (forall rs re last a b, In ((rs, re), last) (match vget v (sv_seq sv) with Some r => r | None => [] end) ->
     rs <= a -> b <= re ->
     wf_input (map (fun r => mkChg (fst r) (sv_rowsize sv) (snd r))
                   (filter (in_range a b) (match vget v (sv_buf sv) with Some b0 => b0 | None => [] end))) a b = true) ->
  In m (buffered_msgs sv v q) ->
  match m with
  | MFull _ _ s e _ => exists rs re last,
      In ((rs, re), last) (match vget v (sv_seq sv) with Some r => r | None => [] end) /\ rs <= s /\ e <= re
  | MEmpty _ _ => False
  end.
Proof. exact buffered_range_within_held. Qed.
Print Assumptions C05_buffered_within_held.

(* a version the server fully holds with live changes: the changesets sent for it (for every
   Full need covering it: C05_full_need_answers_live_version) have sequence ranges that tile
   0..=last_seq and carry exactly its live changes, in order -- via the C08 tiling theorem *)
Theorem C05_live_version_tiles_exact : forall rz v rows,
  rows <> [] ->
  wf_input (map (fun r => mkChg (fst r) rz (snd r)) rows) 0 (maxseq rows) = true ->
  let ms := send_chunks rz v (maxseq rows) rows 0 (maxseq rows) in
  tiles 0 (maxseq rows) (map msg_range ms) /\
  concat (map msg_rows ms) = rows /\
  Forall (fun m => match m with MFull v' _ _ _ l => v' = v /\ l = maxseq rows | MEmpty _ _ => False end) ms.
Proof. exact live_version_tiles_exact. Qed.
Print Assumptions C05_live_version_tiles_exact.

(* KNOWN FINDING (C01/C05, class resurrect-duplicate-seq).  The hypothesis wf_input above asks
   the stored rows of the version to have strictly increasing seqs.  On a node that merged a
   foreign record which resurrects a row it holds at a lower causal length, cr-sqlite stamps the
   sentinel it creates with the db_version and seq of that record: the node then stores two rows
   under one (site_id, db_version, seq), the hypothesis is false, and the chunker -- which stops
   at the first row whose seq is last_seq -- does not serve the second one.  Witness (the shape
   found on the real agents: sentinel then data record, both at seq 0 = last_seq): *)
Theorem C05_duplicate_seq_row_is_not_served_refuted :
  exists rz v rows,
    rows <> [] /\
    wf_input (map (fun r => mkChg (fst r) rz (snd r)) rows) 0 (maxseq rows) = false /\
    concat (map msg_rows (send_chunks rz v (maxseq rows) rows 0 (maxseq rows))) = removelast rows.
Proof.
  exists 75, 3, [(0, 1); (0, 2)].
  split; [discriminate|]. split; vm_compute; reflexivity.
Qed.
Print Assumptions C05_duplicate_seq_row_is_not_served_refuted.

Theorem C05_full_need_answers_live_version : forall sv s e v rows m,
  vget v (sv_live sv) = Some rows -> s <= v <= e ->
  In m (send_chunks (sv_rowsize sv) v (maxseq rows) rows 0 (maxseq rows)) ->
  In m (handle_need_full sv s e).
Proof. exact full_need_answers_live_version. Qed.
Print Assumptions C05_full_need_answers_live_version.

Example C05_nonvacuous :
  let sv := mkSrv [(8, [(0, 1009)]); (9, [(0, 1001); (1, 1002); (2, 1003)])] [(3, 3); (5, 5); (7, 7)]
                  [(4, [(0, 4100); (1, 4101)])] [(4, [((0, 1), 3)])] [(3, 3); (5, 5); (7, 7)] (Some 9) 75 in
  serve sv (NFull 1 9) =
    [MFull 9 [(0, 1001); (1, 1002); (2, 1003)] 0 2 2; MFull 8 [(0, 1009)] 0 0 0;
     MFull 4 [(0, 4100); (1, 4101)] 0 1 3; MEmpty 1 2; MEmpty 6 6] /\
  serve sv (NFull 3 3) = [].
Proof. vm_compute. split; reflexivity. Qed.

(* The seq-range SELECT of handle_need's Partial path, GENERATED from the SQL text in the source
   by tools/needsql2coq.py (Gen/NeedSql.v; Model/Serve.v's Partial path uses this function): for
   well-formed ranges it selects exactly the recorded ranges that share at least one seq with the
   requested range -- a recorded range that merely touches the request is not answered from, and
   none that overlaps is left out -- and the clamp the code then applies (max of the starts, min
   of the ends) is a non-empty range inside both. *)
Theorem C05_partial_select_finds_exactly_the_overlapping_ranges : forall rs re s e,
  rs <= re -> s <= e ->
  (need_overlap_pred_src rs re s e = true <-> exists x, rs <= x <= re /\ s <= x <= e).
Proof. exact need_overlap_select_exact. Qed.
Print Assumptions C05_partial_select_finds_exactly_the_overlapping_ranges.

Theorem C05_partial_answer_range_is_inside_both : forall rs re s e,
  rs <= re -> s <= e -> need_overlap_pred_src rs re s e = true ->
  Z.max rs s <= Z.min re e /\ rs <= Z.max rs s /\ Z.min re e <= re /\ s <= Z.max rs s /\ Z.min re e <= e.
Proof. exact need_overlap_clamp_nonempty. Qed.
Print Assumptions C05_partial_answer_range_is_inside_both.

Example C05_partial_select_examples :
  need_overlap_pred_src 3 6 0 2 = false /\ need_overlap_pred_src 3 6 0 3 = true /\
  need_overlap_pred_src 3 6 4 5 = true /\ need_overlap_pred_src 3 6 6 9 = true /\
  need_overlap_pred_src 3 6 7 9 = false /\ need_overlap_pred_src 3 6 0 9 = true.
Proof. vm_compute. repeat split. Qed.
