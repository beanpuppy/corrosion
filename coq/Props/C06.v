(* C06 — A crash at any point loses no acknowledged write and no sync obligation.
   What is proved here is the bookkeeping half: whatever the durable rows are at a
   commit boundary (DurInv, established by the C02/C03 invariants on every commit),
   the state a restart rebuilds from them with from_conn satisfies the bookkeeping
   invariant -- so the exact-partition theorem (C02) and the request theorem (C04)
   hold for the restarted node.  The data half (every
   commit stores data and bookkeeping rows atomically; WAL recovery) is SQLite's
   and is checked on crash copies of the real files by the harness. *)
From Coq Require Import List ZArith Bool Lia.
From Corro Require Import Lib.Ivl Model.Book Model.BookOps Proofs.BookProofs Proofs.CrashProofs Proofs.DurProofs.
Import ListNotations.
Open Scope Z_scope.

Theorem C06_restart_rebuilds_invariant : forall dbmax seqrows gaprows,
  DurInv dbmax seqrows gaprows -> Inv (from_conn dbmax seqrows gaprows) gaprows.
Proof. exact from_conn_inv. Qed.
Print Assumptions C06_restart_rebuilds_invariant.

(* hence after restart the advertised state is again the exact partition *)
Theorem C06_restart_advertises_exact_partition : forall dbmax seqrows gaprows v,
  DurInv dbmax seqrows gaprows -> 1 <= v ->
  let b := from_conn dbmax seqrows gaprows in
  adv_class (sync_actor b) v = classify b v.
Proof.
  intros dbmax seqrows gaprows v Hd Hv b.
  apply (adv_exact b gaprows v); [apply from_conn_inv; exact Hd|exact Hv].
Qed.
Print Assumptions C06_restart_advertises_exact_partition.

(* a version is advertised as held after restart only if it is neither in the
   durable gap rows nor an incomplete durable partial *)
Theorem C06_held_after_restart : forall dbmax seqrows gaprows v,
  let b := from_conn dbmax seqrows gaprows in
  classify b v = Held ->
  ~ mem v (needed b) /\ v <= max0 (maxv b) /\
  (forall p, aget v (partials b) = Some p -> fully_buffered p = true).
Proof.
  intros dbmax seqrows gaprows v b H. pose proof (classify_spec b v) as Hs. rewrite H in Hs. exact Hs.
Qed.
Print Assumptions C06_held_after_restart.

(* DurInv is not an assumption about reachable states: for EVERY history of bookkeeping
   operations (insert_db of complete/cleared ranges, incomplete chunks; Model/BookOps.v, the
   model the C02 runs compare with the real BookedVersions and its tables) and a crash after
   ANY of its commits, the durable rows satisfy it -- so the restart rebuilds the invariant and
   advertises the exact partition, with the durable gap rows as its needs *)
Theorem C06_durable_rows_always_ok : forall ops,
  Forall op_ok ops ->
  let st := brun ops in DurInv (st_dbmax st) (seqrows_flat (st_seq st)) (st_rows st).
Proof. intros ops Hok st. apply dur_durinv, dur_reachable, Hok. Qed.
Print Assumptions C06_durable_rows_always_ok.

Theorem C06_crash_after_any_step : forall ops v,
  Forall op_ok ops -> 1 <= v ->
  let st := brun ops in
  Inv (reload st) (st_rows st) /\
  adv_class (sync_actor (reload st)) v = classify (reload st) v.
Proof.
  intros ops v Hok Hv st. split; [apply crash_anywhere_restart_inv, Hok|].
  apply (C06_restart_advertises_exact_partition _ _ _ v); [exact (C06_durable_rows_always_ok ops Hok)|exact Hv].
Qed.
Print Assumptions C06_crash_after_any_step.

Example C06_history_nonvacuous :
  let ops := [OpInsert [(1, 2)]; OpPartial 5 0 1 3; OpInsert [(7, 7)]; OpPartial 5 3 3 3; OpInsert [(4, 4)]] in
  Forall op_ok ops /\
  let st := brun ops in
  (st_rows st, st_dbmax st, map fst (st_seq st)) = ([(3, 3); (6, 6)], Some 7, [5]) /\
  needed (reload st) = [(3, 3); (6, 6)] /\ maxv (reload st) = Some 7.
Proof. split; [repeat constructor; cbn; lia|vm_compute; repeat split]. Qed.

Example C06_nonvacuous :
  let b := from_conn (Some 1) [mkSeqRow 3 0 1 3] [(2, 2)] in
  (needed b, maxv b, map fst (partials b)) = ([(2, 2)], Some 3, [3]) /\ inv_b b [(2, 2)] = true.
Proof. vm_compute. split; reflexivity. Qed.
