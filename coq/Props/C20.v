(* C20 — Database writers are mutually exclusive, prioritised and never deadlock.
   Models: Model/WritePool.v (the dispatcher over three queues with one guard at a time;
   tasks holding and requesting ranked locks), Model/LockSeq.v (acquire / release sequences).
   Proofs: Proofs/WritePoolProofs.v, Proofs/LockSeqProofs.v.
   PARTIAL: tokio scheduling, timeouts (5 min per step of write_inner) and the fairness of the
   underlying semaphore are runtime.  Which locks each function of the agent takes, in which
   order and for how long, is READ FROM THE SOURCE on every run (tools/lockorder2coq.py ->
   Gen/LockOrder.v: every non-test function that takes the write connection, the bookie or a
   per-actor bookkeeping lock, as acquire / release steps; guard lifetimes approximated
   textually, erring towards "held longer"; nested lock-taking calls fail closed); a
   hand-written activity table is kept below as a second reading and exercised by a watchdog
   run on a real agent. *)
From Coq Require Import List ZArith Bool Lia.
From Corro Require Import Model.WritePool Model.LockSeq Gen.LockOrder Proofs.WritePoolProofs Proofs.LockSeqProofs.
Import ListNotations.
Open Scope Z_scope.

(* a connection is only handed out while nobody holds one (the guard is a single option in the
   model; that the real pool never has two live WriteConn values is what the harness samples) *)
Theorem C20_grant_needs_free : forall s o, grants (wp_step s o) <> grants s -> holder s = None /\ o = Dispatch.
Proof. exact grant_needs_free. Qed.
Print Assumptions C20_grant_needs_free.

(* when the connection is free a waiting client-priority request is served before any sync or
   background request, and a sync request before any background request; requests cancelled
   while queued are discarded without being served *)
Theorem C20_priority_first : forall s, holder s = None -> q_high s <> [] ->
  let s' := wp_step s Dispatch in
  q_normal s' = q_normal s /\ q_low s' = q_low s /\
  (holder s' = None \/ exists id, holder s' = Some id /\ In id (q_high s) /\ is_cancelled s id = false).
Proof. exact dispatch_prefers_high. Qed.
Print Assumptions C20_priority_first.

Theorem C20_normal_before_low : forall s, holder s = None -> q_high s = [] -> q_normal s <> [] ->
  let s' := wp_step s Dispatch in
  q_low s' = q_low s /\
  (holder s' = None \/ exists id, holder s' = Some id /\ In id (q_normal s) /\ is_cancelled s id = false).
Proof. exact dispatch_prefers_normal. Qed.
Print Assumptions C20_normal_before_low.

(* admission never gets stuck: a free connection with somebody queued always leads to a grant or
   to the removal of a dead entry, and a held connection is freed by its release or by the
   cancellation of its holder *)
Theorem C20_admission_progress : forall s, holder s = None -> (0 < waiting s)%nat ->
  (waiting (wp_step s Dispatch) < waiting s)%nat.
Proof. exact dispatch_progress. Qed.
Print Assumptions C20_admission_progress.

Theorem C20_cancelled_holder_frees : forall s id, holder s = Some id -> holder (wp_step s (Cancel id)) = None.
Proof. exact cancel_holder_frees. Qed.
Print Assumptions C20_cancelled_holder_frees.

(* lock ordering: any set of tasks that only request locks ranked above everything they hold can
   always make a step -- for every state, every number of tasks, every rank function *)
Theorem C20_ordered_locks_never_deadlock : forall (rank : Z -> Z) (ts : list task),
  ts <> [] -> forallb (ordered rank) ts = true ->
  exists i t, nth_error ts i = Some t /\ can_step ts i t = true.
Proof. intros rank ts Hne Hord. apply (ordered_locks_never_deadlock rank ts Hne), forallb_forall, Hord. Qed.
Print Assumptions C20_ordered_locks_never_deadlock.

(* The hand-written table: the agent's activities as transcribed by hand from the source
   (api/public/mod.rs make_broadcastable_changes,
   agent/util.rs process_multiple_changes / process_fully_buffered_changes / clear_buffered_meta_loop,
   types/sync.rs generate_sync), as sequences of acquire / release steps.  Locks: 0 = write
   connection (queue, guard, pooled connection), 1 = write permit, 2 = the bookie (the map of
   actors), 10+a = the bookkeeping of actor a.  The bookie lock is only ever held for the
   lookup `bookie.write(..).ensure(actor)` / the clone of the map and released before the next
   lock is requested, so it ranks ABOVE the per-actor locks: rank 0, 1, then 10+a by actor, then the
   bookie.  Every point of every activity is an ordered task, so no mix of them can deadlock. *)
Definition act_local_write := [Acq 0; Acq 1; Acq 10; Rel 10; Rel 1; Rel 0].
Definition per_actor (a : Z) := [Acq 2; Rel 2; Acq (10 + a); Rel (10 + a)].
Definition act_remote_apply :=                      (* a batch with changes of actors 0, 1, 2: three passes over the actors *)
  [Acq 0; Acq 1] ++ per_actor 0 ++ per_actor 1 ++ per_actor 2 ++ per_actor 0 ++ per_actor 1 ++ per_actor 2 ++
  per_actor 0 ++ per_actor 1 ++ per_actor 2 ++ [Rel 1; Rel 0].
(* (keeping the per-actor locks of earlier actors while going on would be ordered as well) *)
Definition act_remote_apply_holding :=
  [Acq 0; Acq 1; Acq 2; Rel 2; Acq 10; Acq 2; Rel 2; Acq 11; Acq 2; Rel 2; Acq 12; Rel 12; Rel 11; Rel 10; Rel 1; Rel 0].
Definition act_buffered_apply := [Acq 0; Acq 1; Acq 2; Rel 2; Acq 11; Rel 11; Rel 1; Rel 0].
Definition act_generate_sync := [Acq 2; Rel 2; Acq 10; Rel 10; Acq 11; Rel 11; Acq 12; Rel 12].
Definition act_clear_buffered := [Acq 0; Acq 1; Rel 1; Rel 0].
Definition agent_rank (l : Z) : Z := if l =? 2 then 1000 else l.

Fixpoint prefixes (l : list Z) (held : list Z) : list task :=
  match l with
  | [] => [mkTask held None]
  | x :: t => mkTask held (Some x) :: prefixes t (held ++ [x])
  end.

Example C20_agent_activities_are_ordered :
  forallb (ordered agent_rank)
    (flat_map (fun a => points a []) [act_local_write; act_remote_apply; act_remote_apply_holding; act_buffered_apply; act_generate_sync; act_clear_buffered]) = true.
Proof. vm_compute. reflexivity. Qed.

(* holding the bookie while asking for a per-actor lock, or asking for the connection while
   holding bookkeeping, is rejected by the same test *)
Example C20_bookie_held_across_is_not_ordered :
  forallb (ordered agent_rank) (points [Acq 0; Acq 1; Acq 2; Acq 10] []) = false /\
  forallb (ordered agent_rank) (points [Acq 10; Acq 0] []) = false.
Proof. vm_compute. split; reflexivity. Qed.

(* a swapped order is rejected by the same test *)
Example C20_swapped_order_is_not_ordered :
  forallb (ordered (fun x => x)) (prefixes [2; 0] []) = false.
Proof. vm_compute. reflexivity. Qed.

(* natural ranks: connection 0 < permit 1 < bookie 2 < per-actor bookkeeping 10, 11, ..
   Here the bookie stands BELOW the per-actor locks, in agent_rank above them, and each table is ordered
   under its own ranking only.  The activities transcribed by hand release the bookie before they ask for
   the next lock, so its place is decided by act_remote_apply_holding alone, which asks for it while it
   holds per-actor locks.  In the source no function does that, and admin.rs:handle_conn asks for a
   per-actor lock while it holds the bookie: the bookie has to stand below. *)
Definition src_rank (l : Z) : Z := l.
Definition src_points : list task := flat_map (fun a => points (snd a) []) src_activities.

(* at every acquire of every lock-taking function of the source, the requested lock ranks above
   everything the function holds at that point (this is the theorem a swapped or nested lock
   acquisition in the source breaks) *)
Theorem C20_source_lock_sites_are_ordered : forallb (ordered src_rank) src_points = true.
Proof. vm_compute. reflexivity. Qed.
Print Assumptions C20_source_lock_sites_are_ordered.

(* hence: any number of threads, each at any point of any of these functions, is never stuck *)
Theorem C20_source_activities_never_deadlock : forall ts : list task,
  ts <> [] -> (forall t, In t ts -> In t src_points) ->
  exists i t, nth_error ts i = Some t /\ can_step ts i t = true.
Proof.
  intros ts Hne Hin. apply (ordered_locks_never_deadlock src_rank ts Hne). intros t Ht.
  exact (proj1 (forallb_forall _ _) C20_source_lock_sites_are_ordered t (Hin t Ht)).
Qed.
Print Assumptions C20_source_activities_never_deadlock.

(* "Every mix ... completes".  Threads run acquire / release sequences under mutual exclusion
   of every lock (a thread's acquire is possible only while no other thread holds the lock).
   For EVERY rank function and EVERY list of threads whose remaining sequences are ordered at
   every point and release what they took: while somebody has work left somebody's next step
   is possible (no mix is stuck); a possible step keeps the discipline and shortens the work
   left by one.  Hence every run of possible steps is finite and can only end with all done:
   that last step is this argument in prose; the Coq statement further down
   (C20_every_mix_of_source_activities_completes) is that a run to the end exists. *)
Theorem C20_ordered_threads_progress : forall (rank : Z -> Z) (ts : list thr),
  Forall (thr_ok rank) ts -> all_done ts = false ->
  exists pre t post, ts = pre ++ t :: post /\ enabled_in (pre ++ post) t = true.
Proof. exact ordered_threads_progress. Qed.
Print Assumptions C20_ordered_threads_progress.

Theorem C20_ordered_threads_step : forall (rank : Z -> Z) pre t post,
  Forall (thr_ok rank) (pre ++ t :: post) -> enabled_in (pre ++ post) t = true ->
  Forall (thr_ok rank) (pre ++ thr_step t :: post) /\
  (work (pre ++ thr_step t :: post) + 1 = work (pre ++ t :: post))%nat.
Proof. exact ordered_threads_step. Qed.
Print Assumptions C20_ordered_threads_step.

(* every lock-taking function of the source releases what it took *)
Theorem C20_source_activities_are_balanced :
  forallb (fun a => match end_held (snd a) [] with [] => true | _ => false end) src_activities = true.
Proof. vm_compute. reflexivity. Qed.
Print Assumptions C20_source_activities_are_balanced.

(* any number of threads, each starting any lock-taking function of the CURRENT source, in any
   mix: there is a run of possible steps at whose end all of them are done *)
Theorem C20_every_mix_of_source_activities_completes : forall ts : list thr,
  (forall t, In t ts -> exists a, In a src_activities /\ t = mkThr (snd a) []) ->
  exists ts', runs ts ts' /\ all_done ts' = true.
Proof.
  intros ts Hts. apply (ordered_threads_complete src_rank (work ts) ts eq_refl).
  apply Forall_forall. intros t Ht. destruct (Hts t Ht) as (a & Ha & ->).
  split; cbn [th_rest th_held].
  - pose proof C20_source_lock_sites_are_ordered as H. unfold src_points in H.
    rewrite forallb_forall in H. apply forallb_forall. intros x Hx. apply H.
    apply in_flat_map. exists a. split; assumption.
  - pose proof C20_source_activities_are_balanced as H. rewrite forallb_forall in H.
    specialize (H a Ha). destruct (end_held (snd a) []); [reflexivity|discriminate].
Qed.
Print Assumptions C20_every_mix_of_source_activities_completes.

(* two threads taking the connection and one actor's bookkeeping in opposite orders: both are
   balanced, the second is not ordered, and the mix has a reachable state with work left in
   which nobody can step *)
Example C20_opposite_orders_get_stuck :
  let a := [Acq 0; Acq 10; Rel 10; Rel 0] in
  let b := [Acq 10; Acq 0; Rel 0; Rel 10] in
  forallb (ordered src_rank) (points b []) = false /\
  let s := [thr_step (mkThr a []); thr_step (mkThr b [])] in
  all_done s = false /\
  enabled_in [nth 1 s (mkThr [] [])] (nth 0 s (mkThr [] [])) = false /\
  enabled_in [nth 0 s (mkThr [] [])] (nth 1 s (mkThr [] [])) = false.
Proof. vm_compute. repeat split. Qed.

(* the generated table is not empty and contains the writers the property names *)
Example C20_source_table_nonvacuous :
  (10 <= length src_activities)%nat /\ (40 <= length src_points)%nat /\
  existsb (fun t => match t_wants t with Some 10 => existsb (Z.eqb 0) (t_holds t) | _ => false end) src_points = true.
Proof. vm_compute. repeat split; apply Nat.leb_le; reflexivity. Qed.

Example C20_nonvacuous :
  (* the connection is held; low 1, normal 2, priority 3, priority 4 queue up; 3 is cancelled;
     after the release the grants are 4, 2, 1 *)
  let ops := [Req PHigh 9; Dispatch; Req PLow 1; Req PNormal 2; Req PHigh 3; Req PHigh 4; Cancel 3;
              Release; Dispatch; Dispatch; Release; Dispatch; Release; Dispatch; Release] in
  grants (wp_run ops pool_init) = [9; 4; 2; 1] /\ waiting (wp_run ops pool_init) = 0%nat.
Proof. vm_compute. split; reflexivity. Qed.
