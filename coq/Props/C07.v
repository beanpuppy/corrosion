(* C07 — Local transactions are all-or-nothing and get gap-free consecutive versions.
   Model: Model/LocalTx.v (the wrapper logic; the SQL engine is an oracle).
   Proofs: Proofs/LocalTxProofs.v (on top of C02's insert_db theorem and C08's tiling). *)
From Coq Require Import List ZArith Bool Lia.
From Corro Require Import Model.Chunk Model.Book Model.LocalTx Proofs.BookProofs Proofs.ChunkProofs Proofs.LocalTxProofs Gen.Consts.
Import ListNotations.
Open Scope Z_scope.

(* after ANY sequence of requests (successful, failing, changing nothing): the
   node's own bookkeeping has no gap and the acknowledged versions are exactly
   n, n-1, ..., 1 *)
Theorem C07_versions_gap_free : forall rs,
  Inv (l_bv (lrun rs)) (l_rows (lrun rs)) /\ needed (l_bv (lrun rs)) = [] /\
  l_acked (lrun rs) = countdown (Z.to_nat (max0 (maxv (l_bv (lrun rs))))).
Proof. exact lrun_LInv. Qed.
Print Assumptions C07_versions_gap_free.

(* one request from any reachable state *)
Theorem C07_all_or_nothing : forall s r, LInv s ->
  LInv (fst (lstep s r)) /\
  ((r_ok r = false \/ r_recs r = []) ->
     fst (lstep s r) = s /\ o_version (snd (lstep s r)) = None /\
     o_same (snd (lstep s r)) = true /\ o_chunks (snd (lstep s r)) = []) /\
  (r_ok r = true -> r_recs r <> [] ->
     o_version (snd (lstep s r)) = Some (max0 (maxv (l_bv s)) + 1) /\
     max0 (maxv (l_bv (fst (lstep s r)))) = max0 (maxv (l_bv s)) + 1).
Proof. exact lstep_LInv. Qed.
Print Assumptions C07_all_or_nothing.

(* the broadcast changesets tile 0..=last_seq and carry exactly the records *)
Theorem C07_broadcast_tiles : forall recs last,
  wf_input (map (fun r => mkChg (fst r) (snd r) (fst r)) recs) 0 last = true ->
  let cs := map (fun r => mkChg (fst r) (snd r) (fst r)) recs in
  let out := fst (run (repeat max_changes_byte_size (S (length cs))) (start_cursor cs 0 last)) in
  chunks_spec cs 0 last out.
Proof. exact broadcast_tiles. Qed.
Print Assumptions C07_broadcast_tiles.

Example C07_nonvacuous :
  let rs := [mkReq true [(0, 70); (1, 70)]; mkReq false [(0, 70)]; mkReq true []; mkReq true [(0, 70)]] in
  map (fun x => o_version (snd x)) (lruns lst_init rs) = [Some 1; None; None; Some 2].
Proof. vm_compute. reflexivity. Qed.
