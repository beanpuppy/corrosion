(* C11 — A subscription's rows and events always equal its query run on the database.
   Model: Model/Ivm.v (Matcher::new rewrite, run, handle_candidates; SQL for the
   generated query family).  Proofs: Proofs/IvmProofs.v. *)
From Coq Require Import List ZArith Bool Lia.
From Corro Require Import Model.Ivm Proofs.IvmProofs.
Import ListNotations.
Open Scope Z_scope.

(* the initial query: matview = query result, fresh row ids, change id 0 *)
Theorem C11_initial : forall q d, q_kind q <> JLeft -> dbnodup d ->
  agree (m_rows (m_init q d)) (eval q d) /\ minv (m_init q d) /\ m_cid (m_init q d) = 0.
Proof. exact m_init_agree. Qed.
Print Assumptions C11_initial.

(* one batch of candidates, single-table queries: ANY candidate list that covers
   the changed rows (a superset is harmless), any filter / projection *)
Theorem C11_batch_single : forall q dold dnew m cs,
  q_kind q = JSingle -> dbfun dold -> dbfun dnew -> valid_cands q cs -> covers q dold dnew cs ->
  agree (m_rows m) (eval q dold) ->
  agree (m_rows (fst (handle_candidates q dnew m cs))) (eval q dnew).
Proof. intros q dold dnew m cs Hk. apply ivm_nonleft. congruence. Qed.
Print Assumptions C11_batch_single.

(* INNER joins, any ON / WHERE / projection, single or composite keys *)
Theorem C11_batch_inner : forall q dold dnew m cs,
  q_kind q = JInner -> dbfun dold -> dbfun dnew -> valid_cands q cs -> covers q dold dnew cs ->
  agree (m_rows m) (eval q dold) ->
  agree (m_rows (fst (handle_candidates q dnew m cs))) (eval q dnew).
Proof. intros q dold dnew m cs Hk. apply ivm_nonleft. congruence. Qed.
Print Assumptions C11_batch_inner.

(* the candidates derived from the changes of a batch (every changed row of every
   table the query reads) are valid and cover *)
Theorem C11_candidates_cover : forall q dold dnew,
  valid_cands q (cands_of q dold dnew) /\ covers q dold dnew (cands_of q dold dnew).
Proof. exact cands_of_ok. Qed.
Print Assumptions C11_candidates_cover.

(* every history, in any batching: after each batch the matview is the query result *)
Theorem C11_history : forall q, q_kind q <> JLeft -> forall ds d0 m,
  dbfun d0 -> Forall dbfun ds -> agree (m_rows m) (eval q d0) ->
  agree (m_rows (run_hist q m d0 ds)) (eval q (last ds d0)).
Proof. exact history_correct. Qed.
Print Assumptions C11_history.

(* LEFT JOIN outside the known-finding class: batches that do not touch the
   nullable side *)
Definition nullable_side_touched (q : query) (dold dnew : db) : Prop :=
  q_kind q = JLeft /\ exists k, row_changed (tbl dold (q_t1 q)) (tbl dnew (q_t1 q)) k = true.

Theorem C11_left_join_left_side : forall q dold dnew m cs,
  q_kind q = JLeft -> dbfun dold -> dbfun dnew ->
  (forall pos ks, In (pos, ks) cs -> pos = 0%nat) ->
  covers q dold dnew cs ->
  (forall k, row_changed (tbl dold (q_t1 q)) (tbl dnew (q_t1 q)) k = false) ->
  agree (m_rows m) (eval q dold) ->
  agree (m_rows (fst (handle_candidates q dnew m cs))) (eval q dnew).
Proof.
  intros q dold dnew m cs _ Ho Hn Hv Hcov Hsame. apply ivm_batch; try assumption.
  - intros pos ks Hi. left. exact (Hv pos ks Hi).
  - intros _. exact Hsame.
Qed.
Print Assumptions C11_left_join_left_side.

(* ... and inside it the property is FALSE of the faithful model (and of the code:
   KNOWN_FINDINGS.txt): a row inserted on the nullable side leaves the stale
   (a, NULL) row behind *)
Definition lj_q : query :=
  mkQ JLeft 0 1 (EEq (ECol 0 0) (ECol 1 1)) (EConst 1) [ECol 0 0; ECol 0 1; ECol 1 0; ECol 1 2].
Definition lj_old : db := [[([1], [Some 10; Some 20])]; []].
Definition lj_new : db := [[([1], [Some 10; Some 20])]; [([7], [Some 1; Some 5])]].

Theorem C11_left_join_refuted :
  nullable_side_touched lj_q lj_old lj_new /\
  eval lj_q lj_new = [([Some [1]; Some [7]], [Some 1; Some 10; Some 7; Some 5])] /\
  map snd (m_rows (fst (handle_candidates lj_q lj_new (m_init lj_q lj_old) (cands_of lj_q lj_old lj_new)))) =
    [([Some [1]; None], [Some 1; Some 10; None; None]);
     ([Some [1]; Some [7]], [Some 1; Some 10; Some 7; Some 5])].
Proof.
  split; [split; [reflexivity|exists [7]; vm_compute; reflexivity]|].
  split; vm_compute; reflexivity.
Qed.
Print Assumptions C11_left_join_refuted.

(* the event stream: replaying it from the previous client view gives the new one *)
Theorem C11_replay : forall q d m cs, minv m ->
  minv (fst (handle_candidates q d m cs)) /\
  client_view mkey (list val) (m_rows (fst (handle_candidates q d m cs))) =
  replay mkey (list val) (client_view mkey (list val) (m_rows m)) (snd (handle_candidates q d m cs)).
Proof. exact hc_replay. Qed.
Print Assumptions C11_replay.

(* change ids increase by exactly one per event *)
Theorem C11_change_ids : forall q d m cs,
  m_cid (fst (handle_candidates q d m cs)) = m_cid m + Z.of_nat (length (snd (handle_candidates q d m cs))) /\
  map fst (stamp (m_cid m) (snd (handle_candidates q d m cs))) =
  map (fun i => m_cid m + Z.of_nat i) (seq 1 (length (snd (handle_candidates q d m cs)))).
Proof. split; [apply hc_cid|apply stamp_ids]. Qed.
Print Assumptions C11_change_ids.

(* no event when the result did not change *)
Theorem C11_no_spurious_events : forall q d m cs,
  functional mkey (list val) (eval q d) ->
  (forall pos ks, In (pos, ks) cs -> forall mk c,
     In (mk, c) (eval_restricted q d pos ks) <-> In (mk, c) (eval q d) /\ sel_pos pos ks mk = true) ->
  agree (m_rows m) (eval q d) ->
  handle_candidates q d m cs = (m, []).
Proof. intros q d m cs _. apply no_spurious_events. Qed.
Print Assumptions C11_no_spurious_events.

(* one pass, on an abstract keyed matview: the new rows on the selected keys, the old ones elsewhere *)
Check pass_spec.
(* what the theorems above assume of eval_restricted holds of an INNER join, for either of its tables *)
Check restricted_inner : forall q d pos ks mk c, q_kind q = JInner -> (pos = 0 \/ pos = 1)%nat ->
  (In (mk, c) (eval_restricted q d pos ks) <-> In (mk, c) (eval q d) /\ sel_pos pos ks mk = true).

(* non-vacuity: an INNER join history with an insert, a value change that moves a
   row out of the filter, a key change and a delete *)
Definition ex_q : query :=
  mkQ JInner 0 1 (EEq (ECol 0 0) (ECol 1 1)) (ELt (EConst 0) (ECol 1 2)) [ECol 0 1; EAdd (ECol 1 2) (EConst 1)].
Definition ex_d0 : db := [[([1], [Some 10; None])]; [([7], [Some 1; Some 5])]].
Definition ex_d1 : db := [[([1], [Some 10; None]); ([2], [Some 20; None])]; [([7], [Some 1; Some 5]); ([8], [Some 2; Some 0])]].
Definition ex_d2 : db := [[([1], [Some 11; None]); ([2], [Some 20; None])]; [([9], [Some 1; Some 5]); ([8], [Some 2; Some 3])]].
Definition ex_d3 : db := [[([2], [Some 20; None])]; [([9], [Some 1; Some 5]); ([8], [Some 2; Some 3])]].

Example C11_nonvacuous :
  dbnodup ex_d0 /\
  map snd (m_rows (run_hist ex_q (m_init ex_q ex_d0) ex_d0 [ex_d1; ex_d2; ex_d3])) = eval ex_q ex_d3 /\
  eval ex_q ex_d3 = [([Some [2]; Some [8]], [Some 20; Some 4])] /\
  map (fun e => fst (fst (fst e))) (snd (handle_candidates ex_q ex_d2 (run_hist ex_q (m_init ex_q ex_d0) ex_d0 [ex_d1]) (cands_of ex_q ex_d1 ex_d2)))
    = [EvIns; EvDel; EvIns].
Proof.
  split.
  - intros t. destruct t as [|[|[|t]]]; repeat constructor; intros [].
  - vm_compute. repeat split.
Qed.
