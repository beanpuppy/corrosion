(* C02 — Advertised sync state is an exact, durable summary of what a node holds.
   Proofs in Proofs/BookProofs.v (and Proofs/DurProofs.v for the induction over reachable
   states, whose step lemma dur_step C06's induction uses as well); model in Model/Book.v,
   Model/SeqRows.v, Model/BookOps.v (transcriptions of agent.rs / sync.rs / util.rs). *)
From Coq Require Import List ZArith Bool Lia.
From Corro Require Import Lib.Ivl Model.Book Model.BookOps Proofs.BookProofs Proofs.DurProofs.
Import ListNotations.
Open Scope Z_scope.

(* (1) One insertion of ANY canonical set of version ranges from 1 up (wf_vs:
   sorted, disjoint, non-adjacent, as a range set holds them; they may overlap
   existing gaps, touch them, cover versions already held, lie beyond the
   head, ...) from ANY state satisfying the invariant:
   never fails on the primary key, every DELETE removes exactly
   one row, the persisted gap rows stay LITERALLY equal to the in-memory
   needed set (hence pairwise disjoint, non-adjacent, inside 1..head-1), and
   the new needed set is (needed ∪ the gap opened beyond the old head) minus
   the inserted versions; partial entries are only ever dropped, not invented. *)
Theorem C02_insert_db_exact : forall b rs vs, Inv b rs -> wf_vs vs ->
  exists b',
    insert_db b rs vs = IdbOk b' (needed b') false /\
    Inv b' (needed b') /\
    (forall x, mem x (needed b') <->
               (mem x (needed b) \/ exists v, In v vs /\ gapx b x v) /\ ~ mem x vs) /\
    max0 (maxv b) <= max0 (maxv b') /\
    (forall v, In v vs -> snd v <= max0 (maxv b')) /\
    (forall v p, aget v (partials b') = Some p -> aget v (partials b) = Some p) /\
    (forall z, max0 (maxv b) <= z -> (forall v, In v vs -> snd v <= z) -> max0 (maxv b') <= z).
Proof. intros b rs vs HI Hwf. exact (insert_db_ok b rs vs HI (wf_vs_ranges vs Hwf)). Qed.
Print Assumptions C02_insert_db_exact.

(* (2) Every reachable state: any sequence of range-set insertions and
   partial-chunk insertions from the empty bookkeeping keeps the invariant and
   never reports a failed INSERT or an ineffective DELETE. *)
Theorem C02_reachable_invariant : forall ops,
  Forall op_ok ops ->
  Forall (fun r => Inv (st_bv (fst r)) (st_rows (fst r)) /\ out_fine (snd r))
         (bruns bstate_init ops).
Proof.
  intros ops H. eapply Forall_impl; [|exact (bruns_dur ops _ dur_init H)].
  intros r [HD Ho]. split; [apply HD|exact Ho].
Qed.
Check C02_reachable_invariant : forall ops,
  Forall (fun op => match op with
                    | OpInsert raw => Forall (fun r => 1 <= fst r <= snd r) raw
                    | OpPartial v s e last => 1 <= v /\ 0 <= s <= e
                    | OpReload => False end) ops ->
  Forall (fun r => Inv (st_bv (fst r)) (st_rows (fst r)) /\
                   match snd r with OutIdbErr | OutBadDelete => False | _ => True end)
         (bruns bstate_init ops).
Print Assumptions C02_reachable_invariant.

(* (3) What generate_sync advertises for an actor is the exact partition of
   1..head: a version is advertised needed / partial / held / beyond exactly
   when it is, and for a partial the advertised missing seqs are exactly the
   gaps of 0..=last_seq.  That the source's full_range() starts at seq 0 is taken
   from Gen/Consts.v, regenerated from agent.rs on every run (BookProofs.is_complete_fully). *)
Theorem C02_advertised_partition : forall b rs v, Inv b rs -> 1 <= v ->
  adv_class (sync_actor b) v = classify b v /\
  (classify b v = PartialC ->
   exists p, aget v (partials b) = Some p /\
     exists a, sync_actor b = Some a /\
       aget v (a_partial a) = Some (gaps 0 (p_last p) (p_seqs p))).
Proof. exact adv_exact. Qed.
Print Assumptions C02_advertised_partition.

Theorem C02_classes_meaning : forall b v,
  (classify b v = Needed <-> mem v (needed b)) /\
  (classify b v = Held -> contains_version b v = true) /\
  (classify b v = PartialC -> contains_version b v = true /\
                              exists p, aget v (partials b) = Some p /\ fully_buffered p = false) /\
  (classify b v = Beyond -> max0 (maxv b) < v).
Proof.
  intros b v. pose proof (classify_spec b v) as H. rewrite contains_version_iff.
  destruct (classify b v); repeat split; try discriminate; tauto.
Qed.
Print Assumptions C02_classes_meaning.

(* (4) the decidable oracle evaluated on implementation states implies the invariant *)
Theorem C02_oracle_sound : forall b rs, inv_b b rs = true -> Inv b rs.
Proof. exact inv_b_sound. Qed.
Print Assumptions C02_oracle_sound.

(* non-vacuity: a reachable state with gaps and a partial; and a set insertion
   that overlaps, touches and extends *)
Example C02_nonvacuous :
  let ops := [OpInsert [(3, 4)]; OpPartial 6 1 5 5; OpInsert [(1, 1); (8, 8)]] in
  Forall op_ok ops /\
  map (fun r => (needed (st_bv (fst r)), st_rows (fst r))) (bruns bstate_init ops) =
    [([(1, 2)], [(1, 2)]); ([(1, 2); (5, 5)], [(1, 2); (5, 5)]);
     ([(2, 2); (5, 5); (7, 7)], [(2, 2); (5, 5); (7, 7)])].
Proof.
  split; [repeat constructor; cbn; lia|vm_compute; reflexivity].
Qed.
