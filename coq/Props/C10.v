(* C10 — Load shedding and duplicate suppression never lose a change for good.
   Model: Model/Ingest.v (transcription of handlers.rs:handle_changes after the
   two fix: commits recorded in KNOWN_FINDINGS.txt). Proofs: Proofs/IngestProofs.v. *)
From Coq Require Import List ZArith Bool Lia.
From Corro Require Import Lib.Ivl Model.Ingest Proofs.IngestProofs.
Import ListNotations.
Open Scope Z_scope.

(* In every state reachable by ANY sequence of offers (changesets of any
   number of actors: complete, partial chunks, empty ranges, duplicates),
   batch spawns of any size, batch completions (successful or failed) and
   cache trims, for every queue length: every entry of the duplicate-suppression
   cache is backed by a changeset that is queued, in flight or was stored by a
   successful batch, sequence number by sequence number. *)
Theorem C10_seen_cache_is_backed : forall self maxq ops,
  Forall op_wf ops -> SeenInv (irun self maxq ops) /\ all_wf (irun self maxq ops).
Proof. exact irun_inv. Qed.
Check C10_seen_cache_is_backed : forall self maxq ops,
  Forall (fun op => match op with Offer c => wf_chg c | _ => True end) ops ->
  (NoDup (map fst (seen (irun self maxq ops))) /\
   forall a v ss, sget (a, v) (seen (irun self maxq ops)) = Some ss ->
     canonical ss /\
     (exists c, In c (live (irun self maxq ops)) /\ about a v c = true) /\
     (forall q, mem q ss -> exists c, In c (live (irun self maxq ops)) /\ carries a v q c = true)) /\
  all_wf (irun self maxq ops).
Print Assumptions C10_seen_cache_is_backed.

(* hence: a changeset suppressed as an already-seen duplicate is never lost --
   all of its content is carried by changesets that are queued, in flight or stored *)
Theorem C10_suppressed_is_not_lost : forall st c,
  SeenInv st -> wf_chg c -> seen_dup (seen st) c = true ->
  match g_seqs c with
  | Some (s, e) => forall q, s <= q <= e ->
      exists c', In c' (live st) /\ carries (g_actor c) (g_lo c) q c' = true
  | None => forall v, g_lo c <= v <= g_hi c ->
      exists c', In c' (live st) /\ about (g_actor c) v c' = true
  end.
Proof. intros st c H _. apply suppressed_is_live, H. Qed.
Print Assumptions C10_suppressed_is_not_lost.

(* a changeset that was shed (or whose batch failed) is forgotten by the cache:
   offered again it is not treated as a duplicate *)
Theorem C10_shed_change_is_accepted_again : forall s d,
  wf_chg d -> NoDup (map fst s) ->
  (forall k ss, sget k s = Some ss -> canonical ss) ->
  seen_dup (forget s d) d = false.
Proof. intros s d H _. apply forgotten_not_dup, H. Qed.
Print Assumptions C10_shed_change_is_accepted_again.

Theorem C10_accepted_is_queued : forall self maxq st c d,
  snd (offer self maxq st c) = Accepted d -> In c (queue (fst (offer self maxq st c))).
Proof. exact accepted_is_queued. Qed.
Print Assumptions C10_accepted_is_queued.

Theorem C10_successful_batch_stores : forall self maxq st i b,
  nth_error (inflight st) i = Some b ->
  forall c, In c b -> In c (stored (istep self maxq st (Done i true))).
Proof. exact done_ok_stores. Qed.
Print Assumptions C10_successful_batch_stores.

(* non-vacuity: two actors, queue of 2, an overflow that drops actor 5's change
   while actor 6's traffic arrives; the dropped change is accepted again *)
Example C10_nonvacuous :
  let c a v := mkChg a v v (Some (0, 0)) 0 in
  let ops := [Offer (c 5 1); Spawn 1; Offer (c 5 2); Offer (c 5 3); Offer (c 6 1)] in
  Forall op_wf ops /\
  queue (irun 0 2 ops) = [c 5 3; c 6 1] /\
  seen_dup (seen (irun 0 2 ops)) (c 5 2) = false /\
  seen_dup (seen (irun 0 2 ops)) (c 5 3) = true.
Proof. split; [repeat constructor; cbn; lia|vm_compute; repeat split]. Qed.
