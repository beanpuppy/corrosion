(* C08 — Changeset chunks tile the sequence range exactly, whatever the size limit.
   Model: Model/Chunk.v.  Proofs: Proofs/ChunkProofs.v. *)
From Coq Require Import List ZArith Bool Lia.
From Corro Require Import Model.Chunk Proofs.ChunkProofs Gen.Consts.
Import ListNotations.
Open Scope Z_scope.

(* For every ordered change list inside [start,last] (wf_input), every stream
   of per-call size limits (any integers, changed between calls), the iterator
   finishes within |cs|+1 calls and its output tiles [start,last], carries
   every change exactly once in order, each inside its chunk's range. *)
Theorem C08_chunks_tile : forall cs start last lims out stf,
  wf_input cs start last = true ->
  (length cs < length lims)%nat ->
  run lims (start_cursor cs start last) = (out, stf) ->
  done stf = true /\ chunks_spec cs start last out.
Proof. exact run_tiles. Qed.
Check C08_chunks_tile : forall cs start last lims out stf,
  wf_input cs start last = true ->
  (length cs < length lims)%nat ->
  run lims (start_cursor cs start last) = (out, stf) ->
  done stf = true /\
  (tiles start last (map snd out) /\ concat (map fst out) = cs /\ Forall chunk_in_range out).
Print Assumptions C08_chunks_tile.

(* a message is only oversized through its last change: everything before it is below the
   limit in force for that message (for every limit schedule) *)
Theorem C08_oversized_only_by_last_change : forall lims st out stf,
  run lims st = (out, stf) -> sizes_ok_b lims out = true.
Proof. exact run_sizes. Qed.
Print Assumptions C08_oversized_only_by_last_change.

Theorem C08_finished_iterator_yields_none : forall cs start last lims out stf l,
  wf_input cs start last = true ->
  (length cs < length lims)%nat ->
  run lims (start_cursor cs start last) = (out, stf) ->
  next l stf = None.
Proof. exact run_then_none. Qed.
Print Assumptions C08_finished_iterator_yields_none.

Theorem C08_empty_input_single_chunk : forall start last l lims,
  start <= last ->
  fst (run (l :: lims) (start_cursor [] start last)) = [([], (start, last))].
Proof. intros start last l lims _. apply empty_single_chunk. Qed.
Print Assumptions C08_empty_input_single_chunk.

(* For EVERY input list -- no ordering hypothesis -- and every limit schedule, what the
   iterator hands out is exactly the prefix of the rows up to and including the first row
   whose seq is last_seq; so everything is served exactly when no row follows the first row
   carrying last_seq.  Strictly increasing seqs (the property's quantifier) guarantee that;
   two rows under one seq = last_seq do not: the boundary of the known finding
   resurrect-duplicate-seq (C01/C05). *)
Theorem C08_served_is_prefix_up_to_last_seq : forall cs start last lims out stf,
  (length cs < length lims)%nat ->
  run lims (start_cursor cs start last) = (out, stf) ->
  concat (map fst out) = upto last cs.
Proof. exact run_serves_upto. Qed.
Print Assumptions C08_served_is_prefix_up_to_last_seq.

Theorem C08_everything_served_iff_nothing_follows_last_seq : forall last cs,
  upto last cs = cs <->
  (forall pre c post, cs = pre ++ c :: post -> c_seq c = last -> post = []).
Proof. exact upto_all. Qed.
Print Assumptions C08_everything_served_iff_nothing_follows_last_seq.

Example C08_duplicate_last_seq_drops_the_second_row :
  fst (run [10; 10; 10] (start_cursor [mkChg 0 5 1; mkChg 0 5 2] 0 0)) = [([mkChg 0 5 1], (0, 0))].
Proof. vm_compute. reflexivity. Qed.

(* the boolean oracle run on implementation output is the same statement *)
Theorem C08_oracle_exact : forall cs start last out,
  check_chunks cs start last out = true <-> chunks_spec cs start last out.
Proof. exact check_chunks_iff. Qed.
Print Assumptions C08_oracle_exact.

(* version-range requests: union of blocks is exactly [s,e] for every k >= 1 *)
Theorem C08_chunk_range_exact : forall s e k,
  1 <= k -> s <= e -> range_spec s e (chunk_range s e k).
Proof. exact chunk_range_spec. Qed.
Check C08_chunk_range_exact : forall s e k, 1 <= k -> s <= e ->
  (forall b, In b (chunk_range s e k) -> s <= fst b /\ fst b <= snd b /\ snd b <= e) /\
  (forall x, s <= x <= e -> exists b, In b (chunk_range s e k) /\ fst b <= x <= snd b).
Print Assumptions C08_chunk_range_exact.

(* ... instantiated at the chunk size the source uses today (Gen/Consts.v is
   regenerated from peer/mod.rs on every run) *)
Theorem C08_chunk_range_callsite : forall s e,
  s <= e -> range_spec s e (chunk_range s e sync_request_chunk).
Proof. intros s e H. apply chunk_range_spec; [discriminate|exact H]. Qed.
Print Assumptions C08_chunk_range_callsite.

(* the request blocks partition the range: consecutive, sharing no version, at most k versions each *)
Theorem C08_chunk_range_partition : forall s e k, 1 <= k -> s <= e -> rtiles_b s e k (chunk_range s e k) = true.
Proof. exact chunk_range_tiles. Qed.
Print Assumptions C08_chunk_range_partition.

Theorem C08_range_oracle_exact : forall s e bs,
  check_chunk_range s e bs = true <-> range_spec s e bs.
Proof. exact check_chunk_range_iff. Qed.
Print Assumptions C08_range_oracle_exact.

(* non-vacuity: hypotheses are met by a non-trivial input, with holes, a
   limit change between chunks and a zero limit *)
Example C08_nonvacuous :
  let cs := [mkChg 2 10 0; mkChg 4 10 1; mkChg 7 10 2; mkChg 8 10 3] in
  wf_input cs 0 10 = true /\
  fst (run [20; 0; 5; 5; 5] (start_cursor cs 0 10)) =
    [([mkChg 2 10 0; mkChg 4 10 1], (0, 4)); ([mkChg 7 10 2], (5, 7)); ([mkChg 8 10 3], (8, 10))].
Proof. vm_compute. split; reflexivity. Qed.

Example C08_range_nonvacuous : chunk_range 1 25 10 = [(1, 10); (11, 20); (21, 25)].
Proof. vm_compute. reflexivity. Qed.
