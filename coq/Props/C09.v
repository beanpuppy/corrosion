(* C09 — Binary codecs round-trip every value and survive arbitrary peer bytes.
   Models: Model/Wire.v (generic speedy codec), Model/WireDescs.v (the protocol
   types), Model/Pack.v (packed primary keys), Lib/Utf8.v.
   Proofs: Proofs/WireProofs.v, Proofs/PackProofs.v. *)
From Coq Require Import List ZArith Bool Lia.
From Corro Require Import Lib.Utf8 Model.Wire Model.WireDescs Model.Pack Proofs.WireProofs Proofs.PackProofs.
Import ListNotations.
Open Scope Z_scope.

(* every well-typed value of every codec description decodes back to itself,
   whatever bytes follow it *)
Theorem C09_wire_roundtrip : forall d, desc_ok d = true -> forall v rest, wt d v = true ->
  dec d (enc d v ++ rest) = ROk v rest.
Proof. exact dec_enc. Qed.
Print Assumptions C09_wire_roundtrip.

(* ... in particular for every protocol message type (all variants) *)
Theorem C09_protocol_types_roundtrip :
  forall i d, In (i, d) all_descs -> forall v rest, wt d v = true -> dec d (enc d v ++ rest) = ROk v rest.
Proof.
  intros i d Hin. apply dec_enc.
  assert (forallb (fun p => desc_ok (snd p)) all_descs = true) as H by (vm_compute; reflexivity).
  rewrite forallb_forall in H. exact (H (i, d) Hin).
Qed.
Print Assumptions C09_protocol_types_roundtrip.

(* a frame is accepted by read_from_buffer: it is at least minimum_bytes_needed long *)
Theorem C09_read_from_buffer_roundtrip : forall d v, desc_ok d = true -> wt d v = true ->
  read_from_buffer d (enc d v) = Some v.
Proof.
  intros d v Hok Hwt. unfold read_from_buffer.
  pose proof (enc_min_bytes d v Hok Hwt) as Hm.
  destruct (length (enc d v) <? min_bytes d)%nat eqn:E; [apply Nat.ltb_lt in E; lia|].
  rewrite <- (app_nil_r (enc d v)). rewrite dec_enc by assumption. reflexivity.
Qed.
Print Assumptions C09_read_from_buffer_roundtrip.

(* packed primary keys: every list of up to 255 values (any i64, any f64 bit
   pattern incl. NaN, text/blob below 2^31 bytes) unpacks to itself *)
Theorem C09_pack_roundtrip : forall vs bs,
  (length vs <= 255)%nat -> forallb sval_ok vs = true ->
  pack vs = Some bs -> unpack bs = UOk vs.
Proof. intros vs bs _. apply unpack_pack. Qed.
Print Assumptions C09_pack_roundtrip.

Theorem C09_pack_total : forall vs, (length vs <= 255)%nat -> exists bs, pack vs = Some bs.
Proof. exact pack_total. Qed.
Print Assumptions C09_pack_total.

(* the string decoder only ever returns valid UTF-8 *)
Theorem C09_decoded_text_is_utf8 : forall bs h r, dec DStr bs = ROk (VB h) r -> utf8_valid h = true.
Proof.
  intros bs h r. cbn [dec]. destruct (read_uint 4 bs) as [[len r0]|]; [|discriminate].
  destruct (Wire.take_z len r0) as [[h' r']|]; [|discriminate].
  destruct (utf8_valid h') eqn:E; [|discriminate]. intros H. inversion H; subst. exact E.
Qed.
Print Assumptions C09_decoded_text_is_utf8.

Example C09_nonvacuous :
  let v := VT 0 (VT 4 (VL [VP (VB (repeat 7 16)) (VL [VT 1 (VP (VN 9) (VL [VP (VN 0) (VN 3)]))])])) in
  wt d_sync_message v = true /\ read_from_buffer d_sync_message (enc d_sync_message v) = Some v /\
  pack [SInt 0; SInt 128; SText [97; 98]] = Some [3; 1; 9; 128; 11; 2; 97; 98] /\
  utf8_valid [237; 160; 128] = false.
Proof. vm_compute. repeat split. Qed.
