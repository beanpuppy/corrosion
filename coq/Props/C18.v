(* C18 — The membership view follows the newest identity of each peer.
   Model: Model/Members.v (transcription of members.rs after the two fixes
   recorded in KNOWN_FINDINGS.txt).  Proofs: Proofs/MembersProofs.v. *)
From Coq Require Import List ZArith Bool Lia.
From Corro Require Import Gen.Consts Model.Members Proofs.MembersProofs.
Import ListNotations.
Open Scope Z_scope.

(* After ANY sequence of up / down notifications and RTT samples allowed by the
   SWIM constraint (an 'up' never carries an identity older than one already
   reported down; one identity = one address and cluster), for every actor:
   it is present iff the last notification about its newest identity was an
   'up', and then it is listed with that identity's timestamp, address and
   cluster. (view_matches is exactly that statement, decidable per actor;
   spec_run is the fold by newest identity.) *)
Theorem C18_view_follows_newest_identity : forall ops,
  ops_allowed [] ops = true ->
  forall a, view_matches (mrun ops) (spec_run ops) a = true.
Proof.
  intros ops H a. apply follows_view, members_view; [|exact H].
  intros x. reflexivity.
Qed.
Check C18_view_follows_newest_identity : forall ops,
  ops_allowed [] ops = true ->
  forall a,
  match mget a (spec_run ops), mget a (states (mrun ops)) with
  | None, None => true
  | Some r, None => negb (s_up r)
  | Some r, Some st =>
    s_up r && (m_ts st =? s_ts r) && (m_addr st =? s_addr r) && (m_cluster st =? s_cluster r)
  | None, Some _ => false
  end = true.
Print Assumptions C18_view_follows_newest_identity.

(* the address index only ever points to present members at their CURRENT address *)
Theorem C18_by_addr_current : forall ops addr a,
  mget addr (by_addr (mrun ops)) = Some a ->
  exists st, mget a (states (mrun ops)) = Some st /\ m_addr st = addr.
Proof. exact mrun_ba_inv. Qed.
Print Assumptions C18_by_addr_current.

(* a round-trip sample changes nothing but the ring of a member whose current
   address is the sampled one: samples for former addresses are inert *)
Theorem C18_rtt_only_current_address : forall ops addr ms a st st',
  mget a (states (mrun ops)) = Some st ->
  mget a (states (add_rtt (mrun ops) addr ms)) = Some st' ->
  core st' = core st /\ (st' <> st -> m_addr st = addr).
Proof. intros ops addr ms a st st'. apply add_rtt_current, mrun_ba_inv. Qed.
Print Assumptions C18_rtt_only_current_address.

(* priority broadcast targets = exactly the same-cluster members with ring 0 *)
Theorem C18_ring0_sound : forall m c addr, In addr (ring0 m c) ->
  exists a st, In (a, st) (states m) /\ m_addr st = addr /\ m_cluster st = c /\ m_ring st = Some 0.
Proof. exact ring0_sound. Qed.
Print Assumptions C18_ring0_sound.

Theorem C18_ring0_complete : forall m c a st,
  In (a, st) (states m) -> m_cluster st = c -> m_ring st = Some 0 -> In (m_addr st) (ring0 m c).
Proof. exact ring0_complete. Qed.
Print Assumptions C18_ring0_complete.

(* ring buckets generated from members.rs (Gen/Consts.v): sorted, contiguous from 0 *)
Example C18_buckets_contiguous :
  (fix ok (lo : Z) (bs : list (Z * Z)) : bool :=
     match bs with [] => true | (a, b) :: t => (a =? lo) && (a <? b) && ok b t end) 0 ring_buckets = true.
Proof. vm_compute. reflexivity. Qed.

Example C18_nonvacuous :
  let ops := [Up (mkActor 5 1000 10 0); Rtt 1000 3; Up (mkActor 5 1001 20 1); Rtt 1000 1;
              Down (mkActor 5 1001 30 1); Up (mkActor 5 1001 30 1)] in
  ops_allowed [] ops = true /\
  states (mrun ops) = [(5, mkMstate 1001 30 1 None)] /\
  map (fun k => states (mrun (firstn k ops))) [2; 3; 4; 5]%nat =
    [[(5, mkMstate 1000 10 0 (Some 0))]; [(5, mkMstate 1001 20 1 None)];
     [(5, mkMstate 1001 20 1 None)]; []].
Proof. vm_compute. repeat split. Qed.
