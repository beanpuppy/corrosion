(* C19 — Backup and restore reproduce the replicated data with correct authorship.
   Models: Model/Backup.v (site-id ordinal rewriting of `corrosion backup` / `restore`),
   Model/RestoreLock.v (the byte-range lock table under sqlite3_restore::lock_all).
   Proofs: Proofs/BackupProofs.v, Proofs/RestoreLockProofs.v.
   PARTIAL for the second half: fcntl semantics, the shm mapping, std::io::copy and what a
   reader connection does after the file changed under it are runtime behaviour; the model has
   the lock table only, the rest is exercised by reader threads against the real command. *)
From Coq Require Import List ZArith Bool Lia.
From Corro Require Import Model.Backup Model.RestoreLock Gen.RestoreLocks Proofs.BackupProofs Proofs.RestoreLockProofs.
Import ListNotations.
Open Scope Z_scope.

(* backup: every clock row keeps its author (rows of "self" move to a fresh ordinal that maps to
   the source's site id), the backup has no "self" row, node-local tables are empty *)
Theorem C19_backup_preserves_authors : forall seq d d',
  forallb (fun p => 0 <=? fst p) (b_sites d) = true ->
  backup seq d = Some d' ->
  b_clock d' = rewrite 0 (fresh_ord seq (b_sites d)) (b_clock d) /\
  (forall r, In r (b_clock d) -> author d r <> None ->
     author d' (if snd r =? 0 then (fst r, fresh_ord seq (b_sites d)) else r) = author d r) /\
  site_of 0 (b_sites d') = None /\ b_members d' = [] /\ b_subs d' = [].
Proof.
  intros seq d d' _ Hb. destruct (backup_preserves_authors seq d d' Hb) as (Hc & Ha & Hrest).
  split; [exact Hc|]. split; [intros r _; apply Ha|exact Hrest].
Qed.
Print Assumptions C19_backup_preserves_authors.

(* restore keeping the actor id x, onto a snapshot without a "self" row: every clock row keeps
   its author, the rows of x become "self" *)
Theorem C19_restore_preserves_authors : forall x snap,
  site_of 0 (b_sites snap) = None ->
  nodupz (map fst (b_sites snap)) = true -> nodupz (map snd (b_sites snap)) = true ->
  let d' := restore (Some x) snap in
  site_of 0 (b_sites d') = Some x /\
  forall r, In r (b_clock snap) -> author snap r <> None ->
    author d' (match ord_of x (b_sites snap) with
               | Some k => if snd r =? k then (fst r, 0) else r
               | None => r end) = author snap r.
Proof.
  intros x snap H0 Hno Hns d'. destruct (restore_preserves_authors x snap H0 Hno Hns) as [Hs Ha].
  split; [exact Hs|]. intros r _. apply Ha.
Qed.
Print Assumptions C19_restore_preserves_authors.

(* the precondition is necessary: a snapshot that still has a "self" row is re-attributed *)
Check restore_with_self_row_refuted.

(* restore without keeping an id changes nothing in the snapshot (cr-sqlite then creates a fresh "self") *)
Theorem C19_restore_plain_is_identity : forall snap, restore None snap = snap.
Proof. reflexivity. Qed.
Print Assumptions C19_restore_plain_is_identity.

(* the lock table: under every interleaving of lock/unlock requests of any number of processes,
   while one process holds a write lock on a byte no other process holds any lock on it *)
Theorem C19_writer_excludes_everyone : forall ops b w o k,
  let t := fold_left lock_step ops [] in
  In (b, w, LWrite) t -> In (b, o, k) t -> o = w.
Proof. exact writer_excludes_everyone. Qed.
Print Assumptions C19_writer_excludes_everyone.

(* lock_all (its lock() calls are GENERATED from sqlite3_restore.rs, Gen/RestoreLocks.v): when it
   succeeds on a WAL destination, no other process held any lock on SQLite's WAL lock bytes --
   WRITE 120, CKPT 121, RECOVER 122 and the five read marks 123..127, one of which every
   reader inside a read transaction holds -- and on a rollback-journal destination nobody held
   PENDING, RESERVED or SHARED.  Together with C19_writer_excludes_everyone: from then until
   the locks are dropped no reader is inside, or can start, a read transaction. *)
Theorem C19_wal_lock_all_excludes_every_reader : forall t w t' b o k,
  run_locks t w lock_all_wal = Some t' -> 120 <= b <= 127 -> In (b, o, k) t -> o = w.
Proof.
  intros t w t' b o k Hrun Hb Hin. eapply run_locks_excludes; [exact Hrun| |exact Hin].
  assert (H : b = 120 \/ b = 121 \/ b = 122 \/ b = 123 \/ b = 124 \/ b = 125 \/ b = 126 \/ b = 127) by lia.
  destruct H as [->|[->|[->|[->|[->|[->|[->| ->]]]]]]]; vm_compute; reflexivity.
Qed.
Print Assumptions C19_wal_lock_all_excludes_every_reader.

Theorem C19_rollback_lock_all_excludes_every_reader : forall t w t' b o k,
  run_locks t w (lock_all_probe ++ lock_all_rollback) = Some t' ->
  b = 1073741824 \/ b = 1073741825 \/ b = 1073741826 -> In (b, o, k) t -> o = w.
Proof.
  intros t w t' b o k Hrun Hb Hin. eapply run_locks_excludes; [exact Hrun| |exact Hin].
  destruct Hb as [->|[->| ->]]; vm_compute; reflexivity.
Qed.
Print Assumptions C19_rollback_lock_all_excludes_every_reader.

(* non-vacuity: with a reader on read mark 4 lock_all fails; with nobody inside it succeeds *)
Example C19_lock_all_nonvacuous :
  run_locks [(127, 7, LRead)] 1 lock_all_wal = None /\
  (exists t', run_locks [] 1 lock_all_wal = Some t') /\
  run_locks [(1073741826, 7, LRead)] 1 (lock_all_probe ++ lock_all_rollback) = None.
Proof. vm_compute. split; [reflexivity|split; [eexists; reflexivity|reflexivity]]. Qed.

Example C19_nonvacuous :
  let src := mkB [(0, 70); (1, 80); (2, 90)] [(100, 0); (101, 1); (102, 0); (103, 2)] [5] [6] in
  (* backup, then restore onto a node whose id is 80, keeping it *)
  match backup 2 src with
  | Some bak =>
      b_sites bak = [(1, 80); (2, 90); (3, 70)] /\ b_clock bak = [(100, 3); (101, 1); (102, 3); (103, 2)] /\
      let dst := restore (Some 80) bak in
      b_sites dst = [(0, 80); (2, 90); (3, 70)] /\ b_clock dst = [(100, 3); (101, 0); (102, 3); (103, 2)] /\
      map (author dst) (b_clock dst) = map (author src) (b_clock src)
  | None => False
  end /\
  (* a reader holding SHARED keeps the restorer out; once it let go, the restorer's write lock keeps readers out *)
  let shared := 1073741826 in
  try_lock [(shared, 2, LRead)] shared 1 LWrite = None /\
  try_lock (lock_step [(shared, 2, LRead)] (OUnlock shared 2)) shared 1 LWrite = Some [(shared, 1, LWrite)] /\
  try_lock [(shared, 1, LWrite)] shared 2 LRead = None.
Proof. vm_compute. repeat split. Qed.
