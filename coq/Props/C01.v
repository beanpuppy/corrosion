(* C01 — Replicas converge under any delivery order, duplication, chunking and loss.
   PARTIAL: what is proved here is the CRDT layer (Model/Crdt.v, a model of cr-sqlite's merge
   earned by differential testing against the real extension; its order-free specification is
   Model/CrdtSpec.v) and a CLUSTER LEVEL on top of it (Model/Cluster.v); each theorem says below
   what it claims.  The replication layers the cluster-level argument rests on
   are the theorems of C02 (exact advertisement), C03 (seq ranges), C04 (requests
   are complete), C05 (answers are exact), C06 (restart), C07 (local versions),
   C08 (tiling), C10 (nothing lost for good).  The cluster theorem
   (C01_cluster_quiescent_node_shows_the_merge) excludes histories in which two records for one row cannot be
   ordered by the merge -- two DELETEs of the same row by different nodes at the same causal
   length -- and that exclusion is necessary: C01_concurrent_deletes_refuted is a history
   of the model in which every node knows everything and one node keeps the row; it replays
   on three real agents (known finding concurrent-deletes, corpus/C01).  The cluster model's
   serve rule and whole-version visibility are tied to the code by C03/C05 and by the
   cluster runs on real agents (see the evidence). *)
From Coq Require Import List ZArith Bool Lia.
From Corro Require Import Model.Crdt Model.CrdtSpec Model.Cluster Proofs.CrdtProofs Proofs.ConvergeProofs Proofs.LiveProofs Proofs.ClusterProofs.
Import ListNotations.
Open Scope Z_scope.

(* CONVERGENCE of the CRDT layer.  rs1 and rs2 are the change records two nodes have merged,
   in the order each node merged them: the same records (as sets -- any permutation, any
   duplication), well-formed (causal lengths from 1, data records with a column version from
   1, the newest generation of a live row carries the column's value: cr-sqlite writes every
   column of an inserted row and Corrosion applies a version only as a whole).  Then both
   nodes show byte-identical tables and identical (causal length, column version) per cell. *)
Theorem C01_same_records_same_state : forall rs1 rs2,
  wf rs1 -> (forall r, In r rs1 <-> In r rs2) ->
  table (merge_all [] rs1) = table (merge_all [] rs2) /\
  versions (merge_all [] rs1) = versions (merge_all [] rs2).
Proof. exact converge_tables. Qed.
Print Assumptions C01_same_records_same_state.

(* ... and what they show is "the merge of everything acknowledged": per row, the greatest
   causal length; deleted if it is even; otherwise the greatest (column version, value) among
   the data records of that generation -- a function of the record set alone *)
Theorem C01_state_is_the_order_free_merge : forall rs k,
  wf rs -> option_map row_obs (dget k (merge_all [] rs)) = row_spec (on_row k rs).
Proof. exact merge_all_spec. Qed.
Print Assumptions C01_state_is_the_order_free_merge.

Theorem C01_spec_ignores_order_and_multiplicity : forall P1 P2,
  (forall r, In r P1 <-> In r P2) -> forallb rec_ok P1 = true -> row_spec P1 = row_spec P2.
Proof. intros P1 P2 Hm _. exact (row_spec_members P1 P2 Hm). Qed.
Print Assumptions C01_spec_ignores_order_and_multiplicity.

(* loss of superseded records: a node that only ever received the records that survive at
   their origin (overwritten cells are not kept, their versions are served as cleared) shows
   the same state as a node that saw every intermediate record *)
Theorem C01_superseded_records_may_be_missing : forall rs1 rs2,
  wf rs1 -> wf rs2 ->
  (forall r, In r rs2 -> In r rs1) ->
  (forall r, In r rs1 -> In r rs2 \/ exists r', In r' rs2 /\ r_row r' = r_row r /\ dominated r r') ->
  table (merge_all [] rs1) = table (merge_all [] rs2) /\
  versions (merge_all [] rs1) = versions (merge_all [] rs2).
Proof. exact converge_superseded. Qed.
Print Assumptions C01_superseded_records_may_be_missing.

(* duplication: merging a record a second time changes nothing -- for every database state
   and every record *)
Theorem C01_duplicate_delivery_is_harmless : forall d r k,
  1 <= r_cl r -> dget k (merge (merge d r) r) = dget k (merge d r).
Proof. intros d r k _. apply merge_idem. Qed.
Print Assumptions C01_duplicate_delivery_is_harmless.

(* reordering: records about different rows commute *)
Theorem C01_rows_are_independent : forall d r1 r2 k,
  r_row r1 <> r_row r2 ->
  dget k (merge (merge d r1) r2) = dget k (merge (merge d r2) r1).
Proof. exact merge_comm_rows. Qed.
Print Assumptions C01_rows_are_independent.

(* a row's causal length never decreases (a delete is never undone by an older write) *)
Theorem C01_causal_length_monotone : forall o r, local_cl o <= local_cl (merge_row o r).
Proof. exact merge_cl_monotone. Qed.
Print Assumptions C01_causal_length_monotone.

Theorem C01_no_value_from_nowhere : forall o r s' c',
  merge_row o r = Some s' -> rw_col s' = Some c' ->
  c_val c' = r_val r \/ exists s c, o = Some s /\ rw_col s = Some c /\ c_val c = c_val c'.
Proof. exact merge_value_origin. Qed.
Print Assumptions C01_no_value_from_nowhere.

Theorem C01_merge_is_local : forall d r k,
  dget k (merge d r) = if k =? r_row r then merge_row (dget (r_row r) d) r else dget k d.
Proof. exact merge_get. Qed.
Print Assumptions C01_merge_is_local.

(* the hypotheses are satisfiable by a history with conflicting writes, a delete, a
   re-insert and an update after it, merged in two different orders with duplicates; and the
   well-formedness condition matters: a lone re-insert marker (its value never delivered)
   leaves an order-dependent leftover *)
Example C01_convergence_nonvacuous :
  let a := mkRec 1 false 5 1 1 0 1 0 in      (* site 0 writes 5 *)
  let b := mkRec 1 false 7 1 1 1 1 0 in      (* site 1 writes 7 concurrently *)
  let x := mkRec 1 true 0 2 2 0 2 0 in       (* site 0 deletes *)
  let s := mkRec 1 true 0 3 3 1 2 0 in       (* site 1 re-inserts: marker ... *)
  let c := mkRec 1 false 9 1 3 1 2 1 in      (* ... and value 9 *)
  let u := mkRec 1 false 4 2 3 0 3 0 in      (* site 0 updates to 4 *)
  let o := mkRec 2 false 1 1 1 0 4 0 in      (* another row *)
  let rs1 := [a; b; x; s; c; u; o] in
  let rs2 := [u; o; c; c; a; s; x; b; b; u] in
  (forall k, wf_row (on_row k rs1) = true) /\
  table (merge_all [] rs1) = [(1, Some 4); (2, Some 1)] /\
  table (merge_all [] rs2) = [(1, Some 4); (2, Some 1)] /\
  versions (merge_all [] rs1) = versions (merge_all [] rs2) /\
  wf_row [a; s] = false /\
  table (merge_all [] [a; s]) <> table (merge_all [] [s; a]).
Proof.
  split.
  - apply wf_by_rows. vm_compute. reflexivity.
  - vm_compute. repeat split. discriminate.
Qed.

Example C01_nonvacuous :
  let a := mkRec 1 false 5 1 1 0 1 0 in      (* site 0 writes 5 *)
  let b := mkRec 1 false 7 1 1 1 1 0 in      (* site 1 writes 7 concurrently *)
  let x := mkRec 1 true 0 2 2 0 2 0 in       (* site 0 deletes *)
  table (merge_all [] [a; b]) = table (merge_all [] [b; a]) /\
  table (merge_all [] [a; b]) = [(1, Some 7)] /\
  table (merge_all [] [a; x; b]) = [] /\ table (merge_all [] [x; b; a]) = [].
Proof. vm_compute. repeat split. Qed.

(* Where the cluster-level statement FAILS on the unchanged code (known finding
   resurrect-duplicate-seq, replayed on three real agents: corpus/C01/found.cases).
   Step 1, proved here for every database and every record: a data record whose causal
   length is above the local one resurrects the row and leaves TWO clock rows -- the new
   sentinel and the column -- under the position (site, db_version, seq) of that one
   record.  Step 2 (C08_served_is_prefix_up_to_last_seq): a relay serving that version
   hands out the rows only up to the first one whose seq is last_seq, so the column record
   is not sent when it is the version's last.  Step 3 (C04/C02): the receiver marks the
   version known and never asks again. *)
Theorem C01_resurrecting_merge_stores_two_records_at_one_position : forall d r,
  r_sent r = false -> Z.odd (r_cl r) = true -> r_cl r <> 1 ->
  local_cl (dget (r_row r) d) < r_cl r ->
  exists c, dget (r_row r) (merge d r) = Some (mkRow (r_cl r) (Some (rclk r)) (Some c)) /\
            c_clk c = rclk r /\ c_val c = r_val r /\ c_colv c = r_colv r.
Proof. exact resurrect_two_records_one_position. Qed.
Print Assumptions C01_resurrecting_merge_stores_two_records_at_one_position.

(* the shape of the replayed history: node 0 holds row 2 at causal length 1 (its own insert),
   then merges node 1's record (text, col_version 2, causal length 3, db_version 3, seq 0) *)
Example C01_resurrect_shape :
  let own := mkRec 2 false 5601 1 1 0 1 0 in
  let r := mkRec 2 false 7517 2 3 1 3 0 in
  dget 2 (merge (merge [] own) r) =
    Some (mkRow 3 (Some (mkClk 1 3 0)) (Some (mkCell 7517 2 (mkClk 1 3 0)))).
Proof. vm_compute. reflexivity. Qed.

(* CLUSTER LEVEL.  crun n ops: n nodes, any sequence of local transactions (Local i rs: node i
   commits a transaction with change records rs) and of deliveries (Pull i j x extra: node i
   obtains version x from node j, which hands out the records of x that are still live in its
   own database -- a relay or a sync server -- plus possibly some superseded ones; a version
   becomes visible as a whole: C03; PullMix i x srv: node i assembles version x from chunks served
   by SEVERAL nodes -- the record at position p comes from node (nth p srv) and arrives iff it is
   live THERE, the case C03's ingest theorem leaves to the runs).
   U = every record of every acknowledged transaction.
   Hypotheses on U: wf (as above), clk_unique (a clock position names one record; assumed,
   but the proofs do not use it) and no_tie
   (no two different records for one row that the merge cannot order: two deletes with the
   same causal length, or two equal values from one site).
   A node that knows every acknowledged version -- heads equal, nothing needed, nothing
   partial: what generate_sync shows at quiescence -- shows the merge of ALL acknowledged
   records, although what it merged may lack every record that was superseded at whichever
   node served it. *)
Theorem C01_cluster_quiescent_node_shows_the_merge : forall n ops i nd,
  let s := crun n ops in
  let U := all_recs (c_log s) in
  wf U -> no_tie U = true -> clk_unique U = true ->
  nth_error (c_nodes s) i = Some nd -> knows_all (c_log s) nd = true ->
  table (n_db nd) = table (merge_all [] U) /\ versions (n_db nd) = versions (merge_all [] U).
Proof. intros n ops i nd s U Hwf Htie _. apply cluster_quiescent_converges; assumption. Qed.
Print Assumptions C01_cluster_quiescent_node_shows_the_merge.

Theorem C01_cluster_quiescent_nodes_agree : forall n ops i1 nd1 i2 nd2,
  let s := crun n ops in
  let U := all_recs (c_log s) in
  wf U -> no_tie U = true -> clk_unique U = true ->
  nth_error (c_nodes s) i1 = Some nd1 -> knows_all (c_log s) nd1 = true ->
  nth_error (c_nodes s) i2 = Some nd2 -> knows_all (c_log s) nd2 = true ->
  table (n_db nd1) = table (n_db nd2) /\ versions (n_db nd1) = versions (n_db nd2).
Proof. intros n ops i1 nd1 i2 nd2 s U Hwf Htie _. apply cluster_quiescent_nodes_agree; assumption. Qed.
Print Assumptions C01_cluster_quiescent_nodes_agree.

(* no value from nowhere, cluster level, for EVERY history (no hypothesis): what a node shows
   is the merge of records of acknowledged transactions only *)
Theorem C01_cluster_nodes_merge_only_acknowledged_records : forall n ops i nd,
  nth_error (c_nodes (crun n ops)) i = Some nd ->
  n_db nd = merge_all [] (n_merged nd) /\ incl (n_merged nd) (all_recs (c_log (crun n ops))).
Proof. exact cluster_merged_is_acknowledged. Qed.
Print Assumptions C01_cluster_nodes_merge_only_acknowledged_records.

(* progress: a version a node lacks can be fetched in one session from any node that knows it
   (its origin always does), and nothing it knew is lost *)
Theorem C01_cluster_missing_version_can_be_fetched : forall s i j x n m vx,
  nth_error (c_nodes s) i = Some n -> nth_error (c_nodes s) j = Some m -> nth_error (c_log s) x = Some vx ->
  knows m x = true -> knows n x = false ->
  exists n', nth_error (c_nodes (cstep s (Pull i j x []))) i = Some n' /\ knows n' x = true /\
             (forall y, knows n y = true -> knows n' y = true) /\ c_log (cstep s (Pull i j x [])) = c_log s.
Proof. intros s i j x n m vx En Em Ex Hm _. exact (cluster_pull_makes_known s i j x n m vx En Em Ex Hm). Qed.
Print Assumptions C01_cluster_missing_version_can_be_fetched.

(* the step the cluster theorem rests on, for every merge order: a record a node merged and no
   longer attributes a clock row to is strictly below another record it merged (or is a
   re-insert marker of the newest generation it has seen) *)
Theorem C01_a_record_no_longer_served_was_superseded : forall Q k r,
  (forall r, In r Q -> r_row r = k) -> forallb rec_ok Q = true ->
  pairwise tie Q -> pairwise clk_clash Q ->
  In r Q -> live_row (stL Q) r = false ->
  (exists r', In r' Q /\ sdom r r' = true) \/ pending Q r.
Proof. exact not_live_is_below. Qed.
Print Assumptions C01_a_record_no_longer_served_was_superseded.

Definition cd_ins := mkRec 1 false 100 1 1 0 1 0.     (* node 0 inserts row 1 *)
Definition cd_delA := mkRec 1 true 0 1 2 0 2 0.       (* node 0 deletes it *)
Definition cd_delB := mkRec 1 true 0 1 2 1 1 0.       (* node 1 deletes it concurrently *)
Definition cd_ops : list cop :=
  [Local 0 [cd_ins]; Pull 1 0 0 []; Pull 2 0 0 [];
   Local 0 [cd_delA]; Local 1 [cd_delB];
   Pull 1 0 1 []; Pull 0 1 2 [];       (* the two deleters exchange their deletes: each keeps its own *)
   Pull 2 0 2 [];                      (* node 2 asks node 0 for node 1's delete: not live there, "cleared" *)
   Pull 2 1 1 []].                     (* ... and node 1 for node 0's delete: not live there either *)

(* KNOWN FINDING concurrent-deletes: the no_tie hypothesis is necessary.  Every node knows
   every version, the record set is well-formed, and node 2 still shows the row that nodes
   0 and 1 deleted. *)
Theorem C01_concurrent_deletes_refuted :
  let s := crun 3 cd_ops in
  let U := all_recs (c_log s) in
  wf U /\ clk_unique U = true /\ no_tie U = false /\
  forallb (knows_all (c_log s)) (c_nodes s) = true /\
  map (fun nd => table (n_db nd)) (c_nodes s) = [[]; []; [(1, Some 100)]].
Proof.
  split.
  - apply wf_by_rows. vm_compute. reflexivity.
  - vm_compute. repeat split.
Qed.
Print Assumptions C01_concurrent_deletes_refuted.

(* the cluster theorem's hypotheses no_tie and clk_unique are met by a history with conflicting
   writes on two nodes, a delete, a re-insert, and a third node that is served by relays which
   had already superseded part of what they hand out (wf holds of it too; the statement below
   does not say so) *)
Definition cv_a := mkRec 1 false 5 1 1 0 1 0.         (* node 0 writes 5 *)
Definition cv_b := mkRec 1 false 7 1 1 1 1 0.         (* node 1 writes 7 concurrently *)
Definition cv_x := mkRec 1 true 0 2 2 0 2 0.          (* node 0 deletes *)
Definition cv_s := mkRec 1 true 0 3 3 1 2 0.          (* node 1 re-inserts: marker ... *)
Definition cv_c := mkRec 1 false 9 1 3 1 2 1.         (* ... and value 9 *)
Definition cv_o := mkRec 2 false 1 1 1 0 3 0.         (* node 0 writes another row *)
Definition cv_ops : list cop :=
  [Local 0 [cv_a]; Local 1 [cv_b]; Pull 1 0 0 []; Pull 0 1 1 [];
   Local 0 [cv_x]; Pull 1 0 2 []; Local 1 [cv_s; cv_c]; Local 0 [cv_o];
   Pull 0 1 3 []; Pull 1 0 4 [];
   Pull 2 1 0 []; Pull 2 0 1 []; Pull 2 1 2 []; Pull 2 0 3 []; Pull 2 1 4 []].
Example C01_cluster_nonvacuous :
  let s := crun 3 cv_ops in
  let U := all_recs (c_log s) in
  no_tie U = true /\ clk_unique U = true /\
  forallb (knows_all (c_log s)) (c_nodes s) = true /\
  map (fun nd => length (n_merged nd)) (c_nodes s) = [6%nat; 6%nat; 3%nat] /\
  map (fun nd => table (n_db nd)) (c_nodes s) = [[(1, Some 9); (2, Some 1)]; [(1, Some 9); (2, Some 1)]; [(1, Some 9); (2, Some 1)]].
Proof. vm_compute. repeat split. Qed.

(* PROGRESS, for every reachable state and without any hypothesis on the records: with no further
   write, sessions with the versions' origins alone bring any node to know every acknowledged
   version (the acknowledged log is untouched) *)
Theorem C01_cluster_node_can_catch_up : forall n ops i nd,
  nth_error (c_nodes (crun n ops)) i = Some nd ->
  exists pulls, Forall is_pull pulls /\
    let s' := fold_left cstep pulls (crun n ops) in
    c_log s' = c_log (crun n ops) /\
    exists nd', nth_error (c_nodes s') i = Some nd' /\ knows_all (c_log s') nd' = true.
Proof. exact cluster_node_can_catch_up. Qed.
Print Assumptions C01_cluster_node_can_catch_up.

(* safety + progress together: once writes stop, every node of every reachable state can reach,
   by sessions alone, a state in which it shows exactly the merge of all acknowledged records *)
Theorem C01_cluster_every_node_can_converge : forall n ops i nd,
  let U := all_recs (c_log (crun n ops)) in
  wf U -> no_tie U = true -> clk_unique U = true ->
  nth_error (c_nodes (crun n ops)) i = Some nd ->
  exists pulls, Forall is_pull pulls /\
    let s' := crun n (ops ++ pulls) in
    c_log s' = c_log (crun n ops) /\
    exists nd', nth_error (c_nodes s') i = Some nd' /\
                table (n_db nd') = table (merge_all [] U) /\ versions (n_db nd') = versions (merge_all [] U).
Proof. intros n ops i nd U Hwf Htie _. apply cluster_every_node_can_converge; assumption. Qed.
Print Assumptions C01_cluster_every_node_can_converge.

(* NO VALUE FROM NOWHERE, as the property states it, for EVERY history of the cluster model and
   without any hypothesis: a value a node shows in its table was carried by a change record of an
   acknowledged transaction (for that row) *)
Theorem C01_cluster_shown_values_were_acknowledged : forall n ops i nd k v,
  nth_error (c_nodes (crun n ops)) i = Some nd -> In (k, Some v) (table (n_db nd)) ->
  exists r, In r (all_recs (c_log (crun n ops))) /\ r_row r = k /\ r_val r = v.
Proof. exact cluster_shown_values_were_acknowledged. Qed.
Print Assumptions C01_cluster_shown_values_were_acknowledged.

(* a version assembled from chunks of two relays that had superseded different parts of it:
   node 0 commits a two-row transaction; node 1 overwrites row 1, node 2 overwrites row 2, each
   after receiving the transaction; node 3 obtains the transaction's first record from node 1
   (where it is no longer live) and the second from node 2 (likewise): it receives NOTHING of
   version 0, then the two overwrites -- and shows what everybody shows *)
Definition mx_a := mkRec 1 false 5 1 1 0 1 0.
Definition mx_b := mkRec 2 false 6 1 1 0 1 1.
Definition mx_c := mkRec 1 false 7 2 1 1 1 0.         (* node 1 updates row 1 *)
Definition mx_d := mkRec 2 false 8 2 1 2 1 0.         (* node 2 updates row 2 *)
Definition mx_ops : list cop :=
  [Local 0 [mx_a; mx_b]; Pull 1 0 0 []; Pull 2 0 0 []; Local 1 [mx_c]; Local 2 [mx_d];
   Pull 1 2 2 []; Pull 2 1 1 [];
   PullMix 3 0 [1%nat; 2%nat]; Pull 3 1 1 []; Pull 3 2 2 []; Pull 0 1 1 []; Pull 0 2 2 []].
Example C01_cluster_mixed_suppliers :
  let s := crun 4 mx_ops in
  let U := all_recs (c_log s) in
  no_tie U = true /\ clk_unique U = true /\
  forallb (knows_all (c_log s)) (c_nodes s) = true /\
  map (fun nd => length (n_merged nd)) (c_nodes s) = [4%nat; 4%nat; 4%nat; 2%nat] /\
  map (fun nd => table (n_db nd)) (c_nodes s) =
    [[(1, Some 7); (2, Some 8)]; [(1, Some 7); (2, Some 8)]; [(1, Some 7); (2, Some 8)]; [(1, Some 7); (2, Some 8)]].
Proof. vm_compute. repeat split. Qed.
