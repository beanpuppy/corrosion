(* Interval sets over Z: the model of rangemap::RangeInclusiveSet<u64> as the
   repository uses it (versions and sequence numbers).  A set is a list of
   closed ranges; the canonical form is sorted, with non-empty, non-overlapping
   and NON-ADJACENT ranges (rangemap coalesces touching ranges).

   Everything later is proved at membership level; [canonical_ext] turns
   membership equality of canonical lists into list equality, which is what
   ties the in-memory sets to the persisted rows (C02). *)
From Coq Require Import List ZArith Bool Lia.
From Corro Require Import Lib.ListFacts.
Import ListNotations.
Open Scope Z_scope.

Definition iset := list (Z * Z).

Fixpoint mem (x : Z) (s : iset) : Prop :=
  match s with
  | [] => False
  | (a, b) :: t => a <= x <= b \/ mem x t
  end.

Fixpoint memb (x : Z) (s : iset) : bool :=
  match s with
  | [] => false
  | (a, b) :: t => ((a <=? x) && (x <=? b)) || memb x t
  end.

(* [lo] bounds the first start from below; [b + 2]: the next range neither overlaps nor touches
   this one.  [canonical] hides lo; the lemmas come as X_canon (with lo, for the inductions) and
   X_canonical. *)
Fixpoint canon_from (lo : Z) (s : iset) : Prop :=
  match s with
  | [] => True
  | (a, b) :: t => lo <= a /\ a <= b /\ canon_from (b + 2) t
  end.

Definition canonical (s : iset) : Prop := exists lo, canon_from lo s.

Fixpoint canon_fromb (lo : Z) (s : iset) : bool :=
  match s with
  | [] => true
  | (a, b) :: t => (lo <=? a) && (a <=? b) && canon_fromb (b + 2) t
  end.

Definition canonicalb (s : iset) : bool :=
  match s with
  | [] => true
  | (a, _) :: _ => canon_fromb a s
  end.

(* RangeInclusiveSet::insert: coalesces overlapping and adjacent ranges *)
Fixpoint ins (a b : Z) (s : iset) : iset :=
  match s with
  | [] => [(a, b)]
  | (x, y) :: t =>
    if y + 1 <? a then (x, y) :: ins a b t
    else if b + 1 <? x then (a, b) :: (x, y) :: t
    else ins (Z.min a x) (Z.max b y) t
  end.

(* RangeInclusiveSet::remove *)
Fixpoint rem (a b : Z) (s : iset) : iset :=
  match s with
  | [] => []
  | (x, y) :: t =>
    if y <? a then (x, y) :: rem a b t
    else if b <? x then (x, y) :: t
    else (if x <? a then [(x, a - 1)] else []) ++
         (if b <? y then (b + 1, y) :: t else rem a b t)
  end.

(* RangeInclusiveSet::gaps(&(a..=b)): maximal sub-ranges of [a,b] not in s *)
Fixpoint gaps (a b : Z) (s : iset) : iset :=
  if b <? a then []
  else
    match s with
    | [] => [(a, b)]
    | (x, y) :: t =>
      if y <? a then gaps a b t
      else if b <? x then [(a, b)]
      else (if a <? x then [(a, x - 1)] else []) ++
           (if y <? b then gaps (y + 1) b t else [])
    end.

(* RangeInclusiveSet::overlapping(&(a..=b)): stored ranges meeting [a,b] *)
Definition overlapping (a b : Z) (s : iset) : iset :=
  filter (fun r => (fst r <=? b) && (a <=? snd r)) s.

(* RangeInclusiveSet::get(&x): the stored range containing x *)
Fixpoint get (x : Z) (s : iset) : option (Z * Z) :=
  match s with
  | [] => None
  | (a, b) :: t => if (a <=? x) && (x <=? b) then Some (a, b) else get x t
  end.

(* extend / from_iter *)
Definition ins_all (rs : list (Z * Z)) (s : iset) : iset :=
  fold_left (fun acc r => ins (fst r) (snd r) acc) rs s.

Definition rem_all (rs : list (Z * Z)) (s : iset) : iset :=
  fold_left (fun acc r => rem (fst r) (snd r) acc) rs s.

Definition ranges_ok (rs : list (Z * Z)) : Prop := Forall (fun r => fst r <= snd r) rs.

(* normalise an arbitrary list of non-empty ranges *)
Definition norm (rs : list (Z * Z)) : iset := ins_all rs [].

Definition set_max (s : iset) : option Z :=
  match rev s with [] => None | (_, b) :: _ => Some b end.

Ltac zb := repeat match goal with
  | H : (_ <? _) = true |- _ => apply Z.ltb_lt in H
  | H : (_ <? _) = false |- _ => apply Z.ltb_ge in H
  | H : (_ <=? _) = true |- _ => apply Z.leb_le in H
  | H : (_ <=? _) = false |- _ => apply Z.leb_gt in H
  | H : (_ =? _) = true |- _ => apply Z.eqb_eq in H
  | H : (_ =? _) = false |- _ => apply Z.eqb_neq in H
  end.
Ltac csplit := repeat match goal with |- _ /\ _ => split end; zb; try lia.

Lemma memb_iff x s : memb x s = true <-> mem x s.
Proof.
  induction s as [|[a b] t IH]; cbn; [split; [discriminate|intros []]|].
  apply orb_iff; [apply andb_iff; apply Z.leb_le|exact IH].
Qed.

Lemma mem_dec x s : {mem x s} + {~ mem x s}.
Proof.
  destruct (memb x s) eqn:E; [left; apply memb_iff, E|right; rewrite <- memb_iff, E; discriminate].
Qed.

(* Membership equivalences are proved range by range: the head is arithmetic, the tail is the
   induction hypothesis, and these say how the two combine, so that lia meets no membership
   atom (it can make no use of one).  H, T: to be in the head range, in the tail; H', T': the same
   after the operation.  (firstorder: tauto is slow when hypotheses are equivalences.) *)

(* a restriction N common to head and tail factors out *)
Lemma and_or_iff (H' H T T' N : Prop) : (H' <-> H /\ N) -> (T' <-> T /\ N) -> (H' \/ T' <-> (H \/ T) /\ N).
Proof. firstorder. Qed.

(* taking H away from R, which leaves X, and then T is taking H \/ T away *)
Lemma nor_iff (G X R H T : Prop) : (G <-> X /\ ~ T) -> (X <-> R /\ ~ H) -> (G <-> R /\ ~ (H \/ T)).
Proof. firstorder. Qed.

(* a restriction Q that P meets anyway *)
Lemma and_absorb (P Q : Prop) : (P -> Q) -> (P <-> P /\ Q).
Proof. tauto. Qed.

Lemma mem_app x s1 s2 : mem x (s1 ++ s2) <-> mem x s1 \/ mem x s2.
Proof.
  induction s1 as [|[a b] s1 IH]; cbn [app mem]; [tauto|].
  split; [intros [H|H]; [auto|apply IH in H as [H|H]; auto]|intros [[H|H]|H]; [auto|right; apply IH; auto..]].
Qed.

Lemma canon_fromb_iff lo s : canon_fromb lo s = true <-> canon_from lo s.
Proof.
  revert lo; induction s as [|[a b] t IH]; intros lo; cbn; [tauto|].
  etransitivity; [apply andb_iff; [apply andb_iff; apply Z.leb_le|apply IH]|apply and_assoc].
Qed.

Lemma canon_from_weaken lo lo' s : lo' <= lo -> canon_from lo s -> canon_from lo' s.
Proof. destruct s as [|[a b] t]; cbn; [tauto|]. intros H (H1 & H2 & H3). split; [lia|split; assumption]. Qed.

Lemma canonicalb_iff s : canonicalb s = true <-> canonical s.
Proof.
  unfold canonical. destruct s as [|[a b] t].
  - cbn. split; [exists 0; exact I|reflexivity].
  - unfold canonicalb. rewrite canon_fromb_iff. split.
    + intros H; exists a; exact H.
    + intros [lo (_ & H2 & H3)]. split; [lia|split; assumption].
Qed.

Lemma canon_from_lower lo s x : canon_from lo s -> mem x s -> lo <= x.
Proof.
  revert lo; induction s as [|[a b] t IH]; intros lo; cbn; [tauto|].
  intros (H1 & H2 & H3) [Hx|Hx]; [lia|]. specialize (IH _ H3 Hx). lia.
Qed.

Lemma canonical_nil : canonical [].
Proof. exists 0; exact I. Qed.

Lemma canonical_tail r t : canonical (r :: t) -> canonical t.
Proof. destruct r as [a b]. intros [lo H]. cbn in H. exists (b + 2). tauto. Qed.

Lemma ins_mem : forall s a b x, a <= b ->
  (mem x (ins a b s) <-> a <= x <= b \/ mem x s).
Proof.
  induction s as [|[p q] t IH]; intros a b x Hab; cbn [ins mem].
  - reflexivity.
  - destruct (q + 1 <? a) eqn:E1; [cbn [mem]; rewrite IH by lia; apply or_swap|].
    destruct (b + 1 <? p) eqn:E2; [reflexivity|].
    (* the two ranges meet or touch: their union is the range that goes on *)
    rewrite IH by lia. rewrite <- or_assoc. apply or_iff_compat_r. zb. lia.
Qed.

Lemma ins_canon : forall s a b lo, a <= b -> canon_from lo s ->
  canon_from (Z.min lo a) (ins a b s).
Proof.
  induction s as [|[p q] t IH]; intros a b lo Hab Hc; cbn [ins].
  - cbn. csplit.
  - cbn in Hc. destruct Hc as (H1 & H2 & H3).
    destruct (q + 1 <? a) eqn:E1.
    + cbn. csplit.
      specialize (IH a b (q + 2) Hab H3).
      eapply canon_from_weaken; [|exact IH]. lia.
    + destruct (b + 1 <? p) eqn:E2.
      * cbn. csplit. eapply canon_from_weaken; [|exact H3]. lia.
      * zb. specialize (IH (Z.min a p) (Z.max b q) (q + 2) ltac:(lia) H3).
        eapply canon_from_weaken; [|exact IH]. lia.
Qed.

Lemma ins_canonical s a b : a <= b -> canonical s -> canonical (ins a b s).
Proof. intros Hab [lo H]. eexists. apply ins_canon; eassumption. Qed.

(* the piece that rem and gaps keep in front of a range they cut: empty unless c < d *)
Lemma mem_cut x c d l : mem x ((if c <? d then [(c, d - 1)] else []) ++ l) <-> c <= x < d \/ mem x l.
Proof.
  destruct (Z.ltb_spec c d); cbn [app mem]; [apply or_iff_compat_r; lia|].
  split; [right; assumption|intros [Hx|Hx]; [lia|exact Hx]].
Qed.

Lemma canon_cut lo c d l : lo <= c -> canon_from (Z.max lo (d + 1)) l ->
  canon_from lo ((if c <? d then [(c, d - 1)] else []) ++ l).
Proof.
  intros Hc Hl. destruct (Z.ltb_spec c d); cbn [app canon_from].
  - split; [exact Hc|]. split; [lia|]. apply (canon_from_weaken (Z.max lo (d + 1))); [lia|exact Hl].
  - apply (canon_from_weaken (Z.max lo (d + 1))); [lia|exact Hl].
Qed.

Lemma rem_mem : forall s a b x lo, a <= b -> canon_from lo s ->
  (mem x (rem a b s) <-> mem x s /\ ~ (a <= x <= b)).
Proof.
  induction s as [|[p q] t IH]; intros a b x lo Hab Hc; cbn [rem mem].
  - tauto.
  - cbn in Hc. destruct Hc as (H1 & H2 & H3). specialize (IH a b x _ Hab H3).
    (* where the tail is kept as it is, it lies beyond b *)
    assert (Ht : b <= q -> (mem x t <-> mem x t /\ ~ a <= x <= b)).
    { intros Hb. apply and_absorb. intros Hm. apply (canon_from_lower _ _ _ H3) in Hm. lia. }
    destruct (Z.ltb_spec q a); [apply and_or_iff; [lia|exact IH]|].
    destruct (Z.ltb_spec b p); [apply and_or_iff; [lia|apply Ht; lia]|].
    (* the range p..q is cut.  mem_cut: what stays of it in front of a; behind b stays either
       b+1..q, the tail untouched, or nothing, and the tail is cut further *)
    rewrite mem_cut. destruct (Z.ltb_spec b q); cbn [mem]; [|apply and_or_iff; [lia|exact IH]].
    rewrite <- or_assoc. apply and_or_iff; [lia|apply Ht; lia].
Qed.

Lemma rem_canon : forall s a b lo, a <= b -> canon_from lo s -> canon_from lo (rem a b s).
Proof.
  induction s as [|[p q] t IH]; intros a b lo Hab Hc; cbn [rem].
  - exact I.
  - cbn in Hc. destruct Hc as (H1 & H2 & H3).
    destruct (Z.ltb_spec q a); [cbn; csplit; apply IH; assumption|].
    destruct (Z.ltb_spec b p); [cbn; csplit; exact H3|].
    apply canon_cut; [exact H1|]. destruct (Z.ltb_spec b q).
    + cbn. csplit. exact H3.
    + apply (canon_from_weaken (q + 2)); [lia|apply IH; assumption].
Qed.

Lemma rem_canonical s a b : a <= b -> canonical s -> canonical (rem a b s).
Proof. intros Hab [lo H]. exists lo. apply rem_canon; assumption. Qed.

Lemma gaps_unfold a b s :
  gaps a b s =
  if b <? a then []
  else
    match s with
    | [] => [(a, b)]
    | (x, y) :: t =>
      if y <? a then gaps a b t
      else if b <? x then [(a, b)]
      else (if a <? x then [(a, x - 1)] else []) ++
           (if y <? b then gaps (y + 1) b t else [])
    end.
Proof. destruct s; reflexivity. Qed.

Lemma gaps_mem : forall s a b x lo, canon_from lo s ->
  (mem x (gaps a b s) <-> a <= x <= b /\ ~ mem x s).
Proof.
  induction s as [|[p q] t IH]; intros a b x lo Hc; rewrite gaps_unfold; cbn [mem].
  - destruct (Z.ltb_spec b a); cbn [mem]; lia.
  - cbn in Hc. destruct Hc as (H1 & H2 & H3).
    (* what is listed before the tail's gaps lies below the tail *)
    assert (Ht : forall P : Prop, (P -> x <= q + 1) -> (P <-> P /\ ~ mem x t)).
    { intros P HP. apply and_absorb. intros Hx Hm. apply HP in Hx. apply (canon_from_lower _ _ _ H3) in Hm. lia. }
    destruct (Z.ltb_spec b a); [cbn [mem]; lia|].
    destruct (Z.ltb_spec q a); [apply (nor_iff _ (a <= x <= b)); [apply (IH a b x _ H3)|lia]|].
    destruct (Z.ltb_spec b p).
    + cbn [mem]. apply (nor_iff _ (a <= x <= b \/ False)); [apply Ht|]; lia.
    + rewrite mem_cut. apply (nor_iff _ (a <= x < p \/ q + 1 <= x <= b)); [|lia].
      apply and_or_iff; [apply Ht; lia|].
      destruct (Z.ltb_spec q b); [apply (IH _ _ _ _ H3)|cbn [mem]; lia].
Qed.

Lemma gaps_canon : forall s a b lo, canon_from lo s -> canon_from a (gaps a b s).
Proof.
  induction s as [|[p q] t IH]; intros a b lo Hc; rewrite gaps_unfold.
  - destruct (b <? a) eqn:E0; cbn; csplit.
  - cbn in Hc. destruct Hc as (H1 & H2 & H3).
    destruct (Z.ltb_spec b a); [exact I|].
    destruct (Z.ltb_spec q a); [apply (IH a b _ H3)|].
    destruct (Z.ltb_spec b p); [cbn; csplit|].
    apply canon_cut; [lia|]. destruct (q <? b); [|exact I].
    apply (canon_from_weaken (q + 1)); [lia|apply (IH (q + 1) b _ H3)].
Qed.

(* no [a <= b] is asked: for b < a both sides hold *)
Lemma gaps_nil s a b : canonical s ->
  (gaps a b s = [] <-> forall x, a <= x <= b -> mem x s).
Proof.
  intros [lo Hc]. split.
  - intros Hg x Hx. destruct (mem_dec x s) as [H|H]; [exact H|exfalso].
    assert (mem x (gaps a b s)) as Hm by (apply (gaps_mem _ _ _ _ _ Hc); auto).
    rewrite Hg in Hm. exact Hm.
  - intros Hall. destruct (gaps a b s) as [|[p q] t] eqn:Hg; [reflexivity|exfalso].
    pose proof (gaps_canon _ a b _ Hc) as Hcg. rewrite Hg in Hcg. cbn in Hcg.
    assert (mem p (gaps a b s)) as Hm by (rewrite Hg; cbn; lia).
    apply (gaps_mem _ _ _ _ _ Hc) in Hm. destruct Hm as [Hp Hn]. apply Hn, Hall, Hp.
Qed.

Lemma gaps_nil_iff s a b lo : canon_from lo s -> a <= b ->
  (gaps a b s = [] <-> forall x, a <= x <= b -> mem x s).
Proof. intros Hc _. apply gaps_nil. exists lo. exact Hc. Qed.

Lemma overlapping_In a b s r :
  In r (overlapping a b s) <-> In r s /\ fst r <= b /\ a <= snd r.
Proof.
  unfold overlapping. etransitivity; [apply filter_In|]. apply and_iff_compat_l, andb_iff; apply Z.leb_le.
Qed.

Lemma overlapping_incl a b s : incl (overlapping a b s) s.
Proof. apply incl_filter. Qed.

Lemma get_Some x s r : get x s = Some r -> In r s /\ fst r <= x <= snd r.
Proof.
  induction s as [|[a b] t IH]; cbn; [discriminate|].
  destruct ((a <=? x) && (x <=? b)) eqn:E.
  - intros H; injection H as <-. apply andb_true_iff in E. cbn. split; [left; reflexivity|lia].
  - intros H. destruct (IH H). split; [right; assumption|assumption].
Qed.

Lemma get_None x s : get x s = None <-> ~ mem x s.
Proof.
  induction s as [|[a b] t IH]; cbn; [tauto|].
  destruct ((a <=? x) && (x <=? b)) eqn:E.
  - apply andb_true_iff in E. split; [discriminate|intros H; exfalso; apply H; left; lia].
  - apply andb_false_iff in E. rewrite IH. split; intros H; [intros [Hx|Hx]; [lia|exact (H Hx)]|intros Hx; exact (H (or_intror Hx))].
Qed.

Lemma In_mem r s x : In r s -> fst r <= x <= snd r -> mem x s.
Proof.
  induction s as [|[a b] t IH]; cbn; [tauto|].
  intros [<-|Hin] Hx; [left; exact Hx|right; apply IH; assumption].
Qed.

Lemma mem_In x s : mem x s -> exists r, In r s /\ fst r <= x <= snd r.
Proof.
  induction s as [|[a b] t IH]; cbn; [tauto|].
  intros [Hx|Hx]; [exists (a, b); cbn; auto|].
  destruct (IH Hx) as (r & Hr & Hrx). exists r. auto.
Qed.

Lemma mem_incl x s1 s2 : incl s1 s2 -> mem x s1 -> mem x s2.
Proof. intros Hi H. apply mem_In in H as (r & Hr & Hx). exact (In_mem r s2 x (Hi r Hr) Hx). Qed.

(* the ranges of a canonical set are at least 2 apart, so points within distance 1 of each
   other lie in the same range *)
Lemma canon_In_near : forall s lo r1 r2 x y, canon_from lo s ->
  In r1 s -> In r2 s -> fst r1 <= x <= snd r1 -> fst r2 <= y <= snd r2 -> x - 1 <= y <= x + 1 ->
  r1 = r2.
Proof.
  induction s as [|[a b] t IH]; intros lo r1 r2 x y Hc H1 H2 Hx Hy Hxy; [destruct H1|].
  cbn in Hc. destruct Hc as (Hlo & Hab & Ht).
  assert (Hlow : forall r z, In r t -> fst r <= z <= snd r -> b + 2 <= z).
  { intros r z Hr Hrz. apply (canon_from_lower _ _ _ Ht). eapply In_mem; eassumption. }
  destruct H1 as [<-|H1], H2 as [<-|H2]; cbn in *.
  - reflexivity.
  - specialize (Hlow _ _ H2 Hy). lia.
  - specialize (Hlow _ _ H1 Hx). lia.
  - eapply IH; eassumption.
Qed.

Lemma canon_In_unique : forall s lo r1 r2 x, canon_from lo s ->
  In r1 s -> In r2 s -> fst r1 <= x <= snd r1 -> fst r2 <= x <= snd r2 -> r1 = r2.
Proof. intros s lo r1 r2 x Hc H1 H2 Hx1 Hx2. apply (canon_In_near s lo r1 r2 x x); auto. lia. Qed.

Lemma canon_In_ok lo s t : canon_from lo s -> In t s -> fst t <= snd t /\ lo <= fst t.
Proof.
  revert lo; induction s as [|[a b] s IH]; intros lo Hc Hin; [destruct Hin|].
  cbn in Hc. destruct Hc as (H1 & H2 & H3). destruct Hin as [<-|Hin]; [cbn; lia|].
  destruct (IH _ H3 Hin). lia.
Qed.

Lemma canonical_In_ok s t : canonical s -> In t s -> fst t <= snd t.
Proof. intros [lo Hc] Hin. eapply canon_In_ok; eassumption. Qed.

Lemma canon_ranges_ok lo s : canon_from lo s -> ranges_ok s.
Proof. intros H. apply Forall_forall. intros t Ht. apply (canon_In_ok lo s t H Ht). Qed.

Lemma canonical_ranges_ok s : canonical s -> ranges_ok s.
Proof. intros [lo H]. eapply canon_ranges_ok; exact H. Qed.

Lemma canon_NoDup lo s : canon_from lo s -> NoDup s.
Proof.
  revert lo; induction s as [|[a b] s IH]; intros lo Hc; [constructor|].
  cbn in Hc. destruct Hc as (H1 & H2 & H3). constructor; [|eapply IH; exact H3].
  intros Hin. destruct (canon_In_ok _ _ _ H3 Hin). cbn in *. lia.
Qed.

Lemma canon_filter f : forall s lo, canon_from lo s -> canon_from lo (filter f s).
Proof.
  induction s as [|[a b] s IH]; intros lo Hc; [exact I|].
  cbn in Hc. destruct Hc as (H1 & H2 & H3). cbn [filter].
  destruct (f (a, b)).
  - cbn. csplit. apply IH; exact H3.
  - eapply canon_from_weaken; [|apply IH; exact H3]. lia.
Qed.

(* one half of the comparison of two heads, to be used in both directions *)
Lemma canon_head_le a1 b1 t1 a2 b2 t2 lo1 lo2 :
  canon_from lo1 ((a1, b1) :: t1) -> canon_from lo2 ((a2, b2) :: t2) ->
  (forall x, mem x ((a1, b1) :: t1) -> mem x ((a2, b2) :: t2)) ->
  a2 <= a1 /\ (a1 = a2 -> b1 <= b2).
Proof.
  cbn [canon_from mem]. intros (_ & N1 & _) (_ & N2 & T2) Hsub.
  assert (Low2 : forall x, mem x t2 -> b2 + 2 <= x) by (intros x; apply canon_from_lower; exact T2).
  split.
  - destruct (Hsub a1) as [H|H]; [lia|lia|apply Low2 in H; lia].
  - (* were b2 < b1, the point b2 + 1 would be in the first set only *)
    intros <-. destruct (Z_le_gt_dec b1 b2) as [H|H]; [exact H|exfalso].
    destruct (Hsub (b2 + 1)) as [H'|H']; [lia|lia|apply Low2 in H'; lia].
Qed.

Lemma canon_ext : forall s1 s2 lo1 lo2,
  canon_from lo1 s1 -> canon_from lo2 s2 ->
  (forall x, mem x s1 <-> mem x s2) -> s1 = s2.
Proof.
  induction s1 as [|[a1 b1] t1 IH]; intros [|[a2 b2] t2] lo1 lo2 H1 H2 Hext.
  - reflexivity.
  - exfalso. cbn in H2. apply (Hext a2). cbn. lia.
  - exfalso. cbn in H1. apply (Hext a1). cbn. lia.
  - destruct (canon_head_le _ _ _ _ _ _ _ _ H1 H2 (fun x => proj1 (Hext x))) as [Ha Hb].
    destruct (canon_head_le _ _ _ _ _ _ _ _ H2 H1 (fun x => proj2 (Hext x))) as [Ha' Hb'].
    assert (a1 = a2) by lia. subst a2.
    assert (b1 = b2) by (specialize (Hb eq_refl); specialize (Hb' eq_refl); lia). subst b2.
    cbn in H1, H2. destruct H1 as (_ & _ & T1), H2 as (_ & _ & T2). f_equal.
    (* the tails lie beyond b1 + 1, so they have the same members too *)
    apply (IH t2 _ _ T1 T2). intros x. specialize (Hext x). cbn in Hext.
    split; intros Hm.
    + pose proof (canon_from_lower _ _ x T1 Hm). destruct (proj1 Hext (or_intror Hm)); [lia|assumption].
    + pose proof (canon_from_lower _ _ x T2 Hm). destruct (proj2 Hext (or_intror Hm)); [lia|assumption].
Qed.

Theorem canonical_ext s1 s2 :
  canonical s1 -> canonical s2 -> (forall x, mem x s1 <-> mem x s2) -> s1 = s2.
Proof. intros [l1 H1] [l2 H2]. eapply canon_ext; eassumption. Qed.

(* inserting a..b, a range of [ins s e t] that contains s..e, is inserting s..e
   (t is the set here: s and e are the bounds, as in the callers) *)
Lemma ins_block t s e a b : canonical t -> s <= e -> a <= s -> e <= b ->
  In (a, b) (ins s e t) -> ins a b t = ins s e t.
Proof.
  intros Hc Hse Ha Hb Hin.
  apply canonical_ext; [apply ins_canonical; [lia|exact Hc]|apply ins_canonical; [lia|exact Hc]|].
  intros x. rewrite !ins_mem by lia. split; [|intros [Hx|Hx]; [left; lia|right; exact Hx]].
  intros [Hx|Hx]; [|right; exact Hx]. apply (ins_mem t s e x Hse). apply (In_mem (a, b)); [exact Hin|exact Hx].
Qed.

Lemma ins_all_canonical rs : forall s, ranges_ok rs -> canonical s -> canonical (ins_all rs s).
Proof.
  intros s Hok. apply fold_left_inv. intros a r Hr Ha.
  apply ins_canonical; [exact (proj1 (Forall_forall _ _) Hok r Hr)|exact Ha].
Qed.

Lemma ins_all_mem rs : forall s x, ranges_ok rs ->
  (mem x (ins_all rs s) <-> mem x rs \/ mem x s).
Proof.
  unfold ins_all. induction rs as [|[a b] rs IH]; intros s x Hok; cbn [fold_left mem].
  - tauto.
  - apply Forall_cons_iff in Hok as [Hab Hok]. cbn [fst snd] in *.
    rewrite IH by assumption. rewrite ins_mem by assumption. rewrite or_assoc. apply or_swap.
Qed.

Lemma rem_all_canonical rs : forall s, ranges_ok rs -> canonical s -> canonical (rem_all rs s).
Proof.
  intros s Hok. apply fold_left_inv. intros a r Hr Ha.
  apply rem_canonical; [exact (proj1 (Forall_forall _ _) Hok r Hr)|exact Ha].
Qed.

Lemma rem_all_mem rs : forall s x, ranges_ok rs -> canonical s ->
  (mem x (rem_all rs s) <-> mem x s /\ ~ mem x rs).
Proof.
  unfold rem_all. induction rs as [|[a b] rs IH]; intros s x Hok Hc; cbn [fold_left mem].
  - tauto.
  - apply Forall_cons_iff in Hok as [Hab Hok]. cbn [fst snd] in *.
    apply (nor_iff _ (mem x (rem a b s))); [apply IH; [exact Hok|apply rem_canonical; assumption]|].
    destruct Hc as [lo Hc]. exact (rem_mem _ _ _ _ _ Hab Hc).
Qed.

Lemma ranges_ok_points {A} (f : A -> Z) l : ranges_ok (map (fun y => (f y, f y)) l).
Proof. apply Forall_forall. intros p Hp. apply in_map_iff in Hp. destruct Hp as (y & <- & _). cbn. lia. Qed.

Lemma mem_points {A} (f : A -> Z) l x : mem x (map (fun y => (f y, f y)) l) <-> exists y, In y l /\ f y = x.
Proof.
  split.
  - intros H. apply mem_In in H. destruct H as (p & Hp & Hx). apply in_map_iff in Hp.
    destruct Hp as (y & <- & Hy). exists y. split; [exact Hy|cbn in Hx; lia].
  - intros (y & Hy & <-). apply (In_mem (f y, f y)); [apply (in_map (fun y => (f y, f y))), Hy|cbn; lia].
Qed.

Lemma norm_canonical rs : ranges_ok rs -> canonical (norm rs).
Proof. intros H. apply ins_all_canonical; [exact H|apply canonical_nil]. Qed.

Lemma norm_mem rs x : ranges_ok rs -> (mem x (norm rs) <-> mem x rs).
Proof. intros H. unfold norm. rewrite ins_all_mem by exact H. split; [intros [Hm|[]]; exact Hm|left; assumption]. Qed.

Lemma norm_id s : canonical s -> norm s = s.
Proof.
  intros Hc. apply canonical_ext; [apply norm_canonical, canonical_ranges_ok, Hc|exact Hc|].
  intros x. apply norm_mem, canonical_ranges_ok, Hc.
Qed.
