From Coq Require Import List ZArith Bool Lia.
Import ListNotations.

(* P may speak of the elements folded so far (h) *)
Lemma fold_left_hist {A B} (P : list B -> A -> Prop) (f : A -> B -> A) l :
  (forall h a b, In b l -> P h a -> P (h ++ [b]) (f a b)) -> forall h a, P h a -> P (h ++ l) (fold_left f l a).
Proof.
  induction l as [|b l IH]; intros Hf h a Ha; cbn [fold_left]; [rewrite app_nil_r; exact Ha|].
  replace (h ++ b :: l) with ((h ++ [b]) ++ l) by (rewrite <- app_assoc; reflexivity).
  apply IH.
  - intros h' a' b' Hb'. apply Hf. right. exact Hb'.
  - apply Hf; [left; reflexivity|exact Ha].
Qed.

Lemma fold_left_inv {A B} (P : A -> Prop) (f : A -> B -> A) l :
  (forall a b, In b l -> P a -> P (f a b)) -> forall a, P a -> P (fold_left f l a).
Proof. intros Hf. exact (fold_left_hist (fun _ => P) f l (fun _ => Hf) []). Qed.

Lemma filter_all {A} (p : A -> bool) l : (forall x, In x l -> p x = true) -> filter p l = l.
Proof.
  induction l as [|a l IH]; cbn; intros H; [reflexivity|].
  rewrite (H a (or_introl eq_refl)). f_equal. apply IH. intros x Hx. apply H. right. exact Hx.
Qed.

Lemma filter_nil {A} (p : A -> bool) l : filter p l = [] <-> forall x, In x l -> p x = false.
Proof.
  induction l as [|a l IH]; cbn.
  - split; [intros _ x []|reflexivity].
  - destruct (p a) eqn:E.
    + split; [discriminate|]. intros H. rewrite (H a (or_introl eq_refl)) in E. discriminate.
    + rewrite IH. split; [intros H x [<-|Hx]; auto|intros H x Hx; apply H; right; exact Hx].
Qed.

Lemma filter_map_comm {A B} (g : B -> bool) (h : A -> B) l :
  filter g (map h l) = map h (filter (fun a => g (h a)) l).
Proof.
  induction l as [|a l IH]; cbn; [reflexivity|]. destruct (g (h a)); cbn; rewrite IH; reflexivity.
Qed.

Lemma flat_map_if {A B} (p : A -> bool) (f : A -> list B) l :
  flat_map (fun a => if p a then f a else []) l = flat_map f (filter p l).
Proof. induction l as [|a l IH]; cbn; [reflexivity|]. destruct (p a); cbn; rewrite IH; reflexivity. Qed.

Lemma NoDup_map_inj {A B} (f : A -> B) l a b : NoDup (map f l) -> In a l -> In b l -> f a = f b -> a = b.
Proof.
  induction l as [|x l IH]; cbn; intros Hn Ha Hb E; [contradiction|].
  apply NoDup_cons_iff in Hn as [Hx Hn].
  destruct Ha as [->|Ha], Hb as [->|Hb].
  - reflexivity.
  - exfalso. apply Hx. rewrite E. apply in_map. exact Hb.
  - exfalso. apply Hx. rewrite <- E. apply in_map. exact Ha.
  - apply IH; assumption.
Qed.

Lemma NoDup_map_filter {A B} (g : A -> B) (p : A -> bool) l : NoDup (map g l) -> NoDup (map g (filter p l)).
Proof.
  induction l as [|a l IH]; cbn; intros Hn; [constructor|].
  apply NoDup_cons_iff in Hn as [Ha Hn]. destruct (p a); cbn; [constructor|]; auto.
  intros H. apply Ha. exact (incl_map g (incl_filter p l) _ H).
Qed.

Lemma NoDup_app_disj {A} (l1 l2 : list A) :
  NoDup l1 -> NoDup l2 -> (forall x, In x l1 -> ~ In x l2) -> NoDup (l1 ++ l2).
Proof.
  induction l1 as [|a l1 IH]; cbn; intros H1 H2 Hd; [exact H2|].
  apply NoDup_cons_iff in H1 as [Ha H1]. constructor.
  - rewrite in_app_iff. intros [H|H]; [contradiction|]. exact (Hd a (or_introl eq_refl) H).
  - apply IH; [exact H1|exact H2|]. intros x Hx. apply Hd. right. exact Hx.
Qed.

Lemma NoDup_snoc {A} (l : list A) x : NoDup l -> ~ In x l -> NoDup (l ++ [x]).
Proof.
  intros Hl Hx. apply NoDup_app_disj; [exact Hl|repeat constructor; intros []|].
  intros y Hy [<-|[]]. exact (Hx Hy).
Qed.

Lemma in_snoc {A} (Q : list A) x r : In r (Q ++ [x]) <-> In r Q \/ r = x.
Proof. rewrite in_app_iff. cbn. split; intros [H|H]; auto. destruct H as [H|[]]; auto. Qed.

Lemma map_fst_combine {A B} (l : list A) : forall l' : list B, length l = length l' -> map fst (combine l l') = l.
Proof.
  induction l as [|a l IH]; intros [|b l'] H; try discriminate; cbn; [reflexivity|].
  apply f_equal, IH. injection H as H. exact H.
Qed.

Lemma map_snd_combine {A B} (l : list A) : forall l' : list B, length l = length l' -> map snd (combine l l') = l'.
Proof.
  induction l as [|a l IH]; intros [|b l'] H; try discriminate; cbn; [reflexivity|].
  apply f_equal, IH. injection H as H. exact H.
Qed.

Lemma last_cons {A} (l : list A) : forall a d, last (a :: l) d = last l a.
Proof.
  induction l as [|b l IH]; intros a d; [reflexivity|].
  change (last (b :: l) d = last (b :: l) a). rewrite !IH. reflexivity.
Qed.

Lemma existsb_eqb {A} (eqb : A -> A -> bool) :
  (forall x y, eqb x y = true <-> x = y) -> forall x l, existsb (eqb x) l = true <-> In x l.
Proof.
  intros He x l. rewrite existsb_exists. split.
  - intros (y & Hy & E). apply He in E. subst y. exact Hy.
  - intros H. exists x. split; [exact H|apply He; reflexivity].
Qed.

(* The models define equality on lists of keys, of cells, ... by their own fixpoints; each
   is a [leqb] here, the second hypothesis being its defining equation. *)
Lemma list_eqb_spec {A} (eqb : A -> A -> bool) (leqb : list A -> list A -> bool) :
  (forall x y, eqb x y = true <-> x = y) ->
  (forall a b, leqb a b = match a, b with
                          | [], [] => true
                          | x :: a', y :: b' => eqb x y && leqb a' b'
                          | _, _ => false
                          end) ->
  forall a b, leqb a b = true <-> a = b.
Proof.
  intros He Hl. induction a as [|x a IH]; intros [|y b]; rewrite Hl.
  - split; reflexivity.
  - split; discriminate.
  - split; discriminate.
  - rewrite andb_true_iff, He, IH. split; [intros [-> ->]; reflexivity|intros [= -> ->]; auto].
Qed.

(* likewise for their tests that a list of numbers has no duplicates *)
Lemma nodupb_NoDup (nd : list Z -> bool) :
  (forall l, nd l = match l with [] => true | x :: t => negb (existsb (Z.eqb x) t) && nd t end) ->
  forall l, nd l = true -> NoDup l.
Proof.
  intros Hnd. induction l as [|x t IH]; rewrite Hnd; intros H; [constructor|].
  apply andb_true_iff in H as [H1 H2]. constructor; [|exact (IH H2)].
  intros Hi. apply negb_true_iff in H1. apply (existsb_eqb Z.eqb Z.eqb_eq) in Hi. congruence.
Qed.

(* the numbers lo..hi, as the models list them *)
Lemma In_seqZ x lo hi :
  In x (map (fun i => (lo + Z.of_nat i)%Z) (seq 0 (Z.to_nat (hi - lo + 1)))) <-> (lo <= x <= hi)%Z.
Proof.
  rewrite in_map_iff. split.
  - intros (i & <- & Hi). apply in_seq in Hi. lia.
  - intros H. exists (Z.to_nat (x - lo)). split; [lia|apply in_seq; lia].
Qed.

Lemma or_swap (A B C : Prop) : A \/ B \/ C <-> B \/ A \/ C.
Proof. tauto. Qed.

Lemma orb_iff a b A B : (a = true <-> A) -> (b = true <-> B) -> (a || b = true <-> A \/ B).
Proof. intros <- <-. apply orb_true_iff. Qed.

Lemma andb_iff a b A B : (a = true <-> A) -> (b = true <-> B) -> (a && b = true <-> A /\ B).
Proof. intros <- <-. apply andb_true_iff. Qed.

Lemma negb_iff a A : (a = true <-> A) -> (negb a = true <-> ~ A).
Proof. intros <-. rewrite negb_true_iff. symmetry. apply not_true_iff_false. Qed.

(* What a boolean formula over comparisons of integers says, read off connective by connective:
   [b2p] solves [b = true <-> ?P], giving ?P the shape of b (a boolean it does not know stays
   [_ = true]); the call is [etransitivity; [b2p|...]], the rest proving [?P <-> Q].  On a
   concrete right-hand side it works only where the shapes match exactly.  [simple apply]: a
   plain apply that fails on an atom first unfolds it looking for a match. *)
Ltac b2p := repeat first [simple apply orb_iff|simple apply andb_iff|simple apply negb_iff|simple apply Z.leb_le|simple apply Z.ltb_lt|simple apply Z.eqb_eq|reflexivity].
